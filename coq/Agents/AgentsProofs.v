(* The decision logic of the three agents (cmd/agent_auditor.go, agent_monitor.go, agent_publisher.go) against the balloon:
   quiet on an honest log by the balloon's completeness theorems, quiet only after a proof that verifies by its soundness
   theorems. *)
From QV Require Import Base.Util Base.Facts Base.HashSig History.HistModel History.HistSpec History.HistProofs
  Hyper.HyperModel Hyper.HyperMap Balloon.Balloon Balloon.BalloonProofs Agents.Agents.

Section PublisherProofs.
  Variables Sn Sig : Type.
  Variable Sig_eqb : Sig -> Sig -> bool.
  Hypothesis Sig_eqb_eq : forall a b, Sig_eqb a b = true <-> a = b.

  Notation pub_filter := (pub_filter Sn Sig Sig_eqb).
  Notation pub_run := (pub_run Sn Sig Sig_eqb).

  Lemma seen_in c g : seen Sig Sig_eqb c g = true <-> In g c.
  Proof. apply existsb_eqb_In, Sig_eqb_eq. Qed.

  (* the cache is a stack of the signatures seen: what is forwarded is pushed onto it, the last forwarded on top *)
  Lemma pub_filter_spec batch : forall c c' out, pub_filter c batch = (c', out) ->
    c' = rev (map snd out) ++ c /\ (NoDup c -> NoDup c') /\
    (forall g, In g (map snd batch) -> In g c') /\ (forall x, In x out -> In x batch).
  Proof.
    induction batch as [|ss r IH]; intros c c' out; cbn [Agents.pub_filter].
    - intros [= <- <-]. cbn. tauto.
    - destruct (seen Sig Sig_eqb c (snd ss)) eqn:Hs.
      + intros Heq. destruct (IH _ _ _ Heq) as (H1 & H2 & H3 & H4). split; [exact H1|]. split; [exact H2|]. split.
        * intros g [<-|Hg]; [|exact (H3 g Hg)]. rewrite H1. apply in_or_app. right. apply seen_in. exact Hs.
        * intros x Hx. right. exact (H4 x Hx).
      + destruct (pub_filter (snd ss :: c) r) as [c1 o1] eqn:Hf. intros [= <- <-].
        destruct (IH _ _ _ Hf) as (H1 & H2 & H3 & H4). split; [|split; [|split]].
        * cbn [map rev]. rewrite <- app_assoc. exact H1.
        * intros Hc. apply H2. constructor; [|exact Hc]. intros Hin. apply seen_in in Hin. congruence.
        * intros g [<-|Hg]; [|exact (H3 g Hg)]. rewrite H1. apply in_or_app. right. left. reflexivity.
        * intros x [<-|Hx]; [left; reflexivity|right; exact (H4 x Hx)].
  Qed.

  Lemma pub_filter_app b1 b2 : forall c, pub_filter c (b1 ++ b2) =
    let '(c1, o1) := pub_filter c b1 in let '(c2, o2) := pub_filter c1 b2 in (c2, o1 ++ o2).
  Proof.
    induction b1 as [|ss r IH]; intros c; cbn [app Agents.pub_filter]; [destruct (pub_filter c b2); reflexivity|].
    destruct (seen Sig Sig_eqb c (snd ss)); [apply IH|]. rewrite IH.
    destruct (pub_filter (snd ss :: c) r) as [c1 o1]. destruct (pub_filter c1 b2). reflexivity.
  Qed.

  (* the filter runs through a sequence of batches as through their concatenation; only the grouping of what is
     forwarded differs *)
  Lemma pub_run_concat batches : forall c c' outs, pub_run c batches = (c', outs) ->
    pub_filter c (concat batches) = (c', concat outs) /\ Forall (fun o => o <> []) outs.
  Proof.
    induction batches as [|b r IH]; intros c c' outs; cbn [Agents.pub_run concat]; [intros [= <- <-]; auto|].
    unfold Agents.pub_step. rewrite pub_filter_app. destruct (pub_filter c b) as [c1 o].
    destruct (pub_run c1 r) as [c2 os] eqn:Hr. destruct (IH c1 c2 os Hr) as [-> Hne]. intros [= <- <-].
    destruct o; [auto|]. split; [reflexivity|]. constructor; [discriminate|exact Hne].
  Qed.

  (* C19: over any sequence of delivered batches (any redelivery pattern, duplicates inside a batch included) *)
  Theorem publisher_once batches c' outs : pub_run [] batches = (c', outs) ->
    NoDup (map snd (concat outs)) /\
    (forall g, In g (map snd (concat batches)) <-> In g (map snd (concat outs))) /\
    (forall x, In x (concat outs) -> In x (concat batches)) /\ Forall (fun o => o <> []) outs.
  Proof using Sig_eqb_eq.
    intros Hr. destruct (pub_run_concat _ _ _ _ Hr) as [Hf Hne].
    destruct (pub_filter_spec _ _ _ _ Hf) as (F1 & F2 & F3 & F4). rewrite app_nil_r in F1. subst c'.
    split; [rewrite <- (rev_involutive (map snd (concat outs))); exact (NoDup_rev (F2 (NoDup_nil _)))|].
    split; [|split; [exact F4|exact Hne]]. intros g. split.
    - intros Hg. apply in_rev, F3, Hg.
    - exact (incl_map snd F4 g).
  Qed.
End PublisherProofs.

Section AgentsProofs.
  Variables D E V : Type.
  Variable H : hin D E V -> D.
  Variable nbits limit : nat.
  Variable kbits : E -> key.
  Variable vval : N -> V.
  Variable vnum : V -> N.
  Variable D_eqb : D -> D -> bool.
  Variable E_eqb : E -> E -> bool.
  Variable e0 : E.
  Hypothesis kbits_len : forall e, length (kbits e) = nbits.
  Hypothesis D_eqb_eq : forall a b, D_eqb a b = true <-> a = b.
  Hypothesis limit_lt : (limit < nbits)%nat.
  Hypothesis nbits_small : N.of_nat nbits < 65536.
  Hypothesis kbits_inj : forall a b, kbits a = kbits b -> a = b.
  Hypothesis vnum_vval : forall v, v < W64 -> vnum (vval v) = v.
  Hypothesis E_eqb_eq : forall a b, E_eqb a b = true <-> a = b.

  Notation ds := (dlist D E V H nbits).
  Notation reach := (reach D E V H nbits limit kbits vval).
  Notation root := (root D E V H).
  Notation auditor := (auditor D E V H nbits kbits vval D_eqb E_eqb).
  Notation monitor := (monitor D E V H D_eqb).
  Notation query_c := (query_membership_consistency D E V H nbits ds kbits vnum).

  (* s_hyper is left free: the auditor checks against the stored hyper digest, not the gossiped one *)
  Definition genuine (evs : list E) (v : N) (g : snapshot D E) : Prop :=
    s_event D E g = nth (N.to_nat v) evs e0 /\ s_hist D E g = root (logf E e0 evs) v /\ s_version D E g = v.

  (* what the auditor needs of the log: the hyper map's version w for the snapshot's event is at most the snapshot's
     version v (it is v itself when the events are distinct: the theorem below).  If the event was added again after v
     then w > v, the server answers QError and the auditor ends with NoVerdict: no alert either way. *)
  Theorem auditor_quiet_gen st evs v w g stored :
    reach st evs -> N.of_nat (length evs) < W64 ->
    map_get V (b_hmap D V st) (kbits (s_event D E g)) = Some w -> vnum w <= v -> v < b_version D V st ->
    s_hist D E g = root (logf E e0 evs) v -> s_version D E g = v ->
    stored (b_version D V st - 1) = Some (hyper_digest D E V H ds st) ->
    auditor (query_c st (s_event D E g) (s_version D E g)) stored g = Quiet.
  Proof using kbits_len D_eqb_eq limit_lt nbits_small kbits_inj vnum_vval E_eqb_eq.
    intros Hr Hlen Hget Hw Hv Hgh Hgv Hst.
    destruct (membership_answer_verifies D E V H nbits limit kbits vval vnum D_eqb E_eqb e0 kbits_len D_eqb_eq limit_lt
                nbits_small kbits_inj vnum_vval E_eqb_eq st evs (s_event D E g) w v Hr Hlen Hget Hw Hv)
      as (a & Ha & _ & _ & _ & Hcur & _ & Hacc).
    rewrite Hgv, Ha. unfold Agents.auditor. rewrite Hcur, Hst, Hgh, Hacc. reflexivity.
  Qed.

  (* C19: honest log of distinct events, honest store *)
  Theorem auditor_quiet_on_honest_log st evs v g stored :
    reach st evs -> N.of_nat (length evs) < W64 -> NoDup (map kbits evs) ->
    v < b_version D V st -> genuine evs v g ->
    stored (b_version D V st - 1) = Some (hyper_digest D E V H ds st) ->
    auditor (query_c st (s_event D E g) (s_version D E g)) stored g = Quiet.
  Proof using kbits_len D_eqb_eq limit_lt nbits_small kbits_inj vnum_vval E_eqb_eq.
    intros Hr Hlen Hnd Hv (Hge & Hgh & Hgv) Hst.
    pose proof (reach_inv D E V H nbits limit kbits vval e0 kbits_len st evs Hr) as HI.
    pose proof (inv_version _ _ _ _ _ _ _ _ _ _ _ HI) as Hver.
    (* distinct events: the hyper map holds version v itself for the event of version v *)
    assert (Hget : map_get V (b_hmap D V st) (kbits (s_event D E g)) = Some (vval v)).
    { apply (map_get_in V _ _ _ (inv_nodup _ _ _ _ _ _ _ _ _ _ _ HI)).
      rewrite (hmap_of_distinct_events D E V H nbits limit kbits vval e0 kbits_len st evs Hr Hnd).
      apply in_map_iff. exists (N.to_nat v). split; [rewrite Hge, N2Nat.id; reflexivity|]. apply in_seq. lia. }
    apply (auditor_quiet_gen st evs v (vval v) g stored Hr Hlen Hget); [rewrite vnum_vval; lia|assumption..].
  Qed.

  Theorem auditor_alerts_iff answer stored g :
    auditor answer stored g = Alerted <->
    exists a y, answer = QOk D E V a /\ stored (a_current D E V a) = Some y /\
                digest_verify D E V H nbits kbits vval D_eqb E_eqb a (s_event D E g) (s_hist D E g) y = Reject.
  Proof using Type.
    unfold Agents.auditor. split.
    - destruct answer as [a| |]; try discriminate. destruct (stored (a_current D E V a)) as [y|] eqn:Hs; [|discriminate].
      destruct (digest_verify _ _ _ _ _ _ _ _ _ a _ _ y) eqn:Hv; [discriminate|]. intros _. exists a, y. auto.
    - intros (a & y & -> & Hs & Hv). rewrite Hs, Hv. reflexivity.
  Qed.

  (* C19: honest log; first and last are any two issued snapshots, first <= last *)
  Theorem monitor_quiet_on_honest_log st evs s e first last p :
    reach st evs -> s <= e -> e < b_version D V st ->
    genuine evs s first -> genuine evs e last ->
    query_consistency D E V H st s e = Some (Some p) ->
    monitor (Some p) first last = Quiet.
  Proof using kbits_len D_eqb_eq limit_lt nbits_small. (* limit_lt, nbits_small: premises of the statement that no step needs (DESIGN 3.4) *)
    intros Hr Hse He (_ & Hfh & Hfv) (_ & Hlh & Hlv) Hq.
    destruct (consistency_answer_verifies D E V H nbits limit kbits vval e0 kbits_len st evs s e Hr Hse He)
      as (p' & Hq' & Hroots).
    rewrite Hq in Hq'. injection Hq' as <-.
    unfold Agents.monitor. rewrite Hfv, Hlv, Hfh, Hlh.
    rewrite (proj2 (incremental_verify_accept D E V H D_eqb D_eqb_eq _ _ _ _ _) Hroots). reflexivity.
  Qed.

  Theorem monitor_query_answered st evs s e :
    reach st evs -> s <= e -> e < b_version D V st ->
    exists p, query_consistency D E V H st s e = Some (Some p).
  Proof using e0 kbits_len limit_lt nbits_small. (* limit_lt, nbits_small: premises of the statement that no step needs (DESIGN 3.4) *)
    intros Hr Hse He.
    destruct (consistency_answer_verifies D E V H nbits limit kbits vval e0 kbits_len st evs s e Hr Hse He)
      as (p & Hq & _).
    exists p. exact Hq.
  Qed.

  Theorem monitor_alerts_iff answer first last :
    monitor answer first last = Alerted <->
    answer = None \/ exists p, answer = Some p /\
      incremental_verify D E V H D_eqb p (s_version D E first) (s_version D E last) (s_hist D E first) (s_hist D E last) = Reject.
  Proof using Type.
    unfold Agents.monitor. destruct answer as [p|]; [|split; auto].
    destruct (incremental_verify _ _ _ _ _ p _ _ _ _) eqn:Hv; split; try discriminate.
    - intros [Hn|(q & Hq & Hr)]; [discriminate|]. injection Hq as <-. congruence.
    - intros _. right. exists p. auto.
    - reflexivity.
  Qed.

  Hypothesis H_inj : forall a b, H a = H b -> a = b.

  (* C19: an altered event digest, or an event that is not in the log, cannot pass *)
  Theorem auditor_quiet_sound (A : N -> E) answer stored g v :
    auditor answer stored g = Quiet -> s_hist D E g = root A v ->
    exists a, answer = QOk D E V a /\ s_event D E g = A (a_actual D E V a) /\ a_actual D E V a <= v.
  Proof using D_eqb_eq H_inj.
    unfold Agents.auditor. destruct answer as [a| |]; try discriminate.
    destruct (stored (a_current D E V a)) as [y|]; [|discriminate].
    destruct (digest_verify _ _ _ _ _ _ _ _ _ a _ _ y) eqn:Hv; [|discriminate]. intros _ Hh. rewrite Hh in Hv.
    destruct (digest_verify_sound D E V H nbits kbits vval D_eqb E_eqb H_inj D_eqb_eq A a _ v y Hv) as (_ & _ & Hd & Hle).
    exists a. auto.
  Qed.

  (* C19: a fork before the first snapshot's version is caught *)
  Theorem monitor_quiet_sound (A B : N -> E) p first last i' j' :
    monitor (Some p) first last = Quiet -> s_version D E first <= s_version D E last ->
    s_hist D E first = root A i' -> s_hist D E last = root B j' ->
    forall k, k <= s_version D E first -> A k = B k.
  Proof using D_eqb_eq H_inj.
    unfold Agents.monitor. intros Hq Hse Hf Hl.
    destruct incremental_verify eqn:Hr; [|discriminate]. rewrite Hf, Hl in Hr.
    apply (incremental_verify_accept D E V H D_eqb D_eqb_eq) in Hr.
    exact (proj1 (incremental_sound D E V H H_inj A B (path_get p) _ _ i' j' Hse Hr)).
  Qed.
End AgentsProofs.
