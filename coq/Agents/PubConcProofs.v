(* With the lock, under every schedule of any number of publisher tasks, no signature is forwarded twice - neither by
   two tasks nor twice by one; without it two tasks forward the same snapshot under an interleaving of four steps. *)
From QV Require Import Base.Util Base.Facts Agents.Agents Agents.AgentsProofs Agents.PubConc.

Section PubConcProofs.
  Variables Sn Sig : Type.
  Variable Sig_eqb : Sig -> Sig -> bool.
  Hypothesis Sig_eqb_eq : forall a b, Sig_eqb a b = true <-> a = b.
  Notation pstate := (pstate Sn Sig).
  Notation task := (task Sn Sig).
  Notation pstep := (pstep Sn Sig Sig_eqb).

  Definition fwd (s : pstate) (i : nat) (g : Sig) : Prop := In g (map snd (t_out _ _ (p_tasks _ _ s i))).

  Definition outs (s : pstate) (j : nat) : list Sig := map snd (t_out _ _ (p_tasks _ _ s j)).

  Definition Once (cache : list Sig) (o : nat -> list Sig) : Prop :=
    (forall i g, In g (o i) -> In g cache) /\ (forall i, NoDup (o i)) /\
    (forall i j g, i <> j -> In g (o i) -> In g (o j) -> False).

  (* a task between its lookup and its store holds the lock, and what it is about to remember is still new *)
  Definition Pending (s : pstate) : Prop :=
    forall i ss, t_pend _ _ (p_tasks _ _ s i) = Some ss -> p_owner _ _ s = Some i /\ ~ In (snd ss) (p_cache _ _ s).

  Definition PubInv (s : pstate) : Prop := Once (p_cache _ _ s) (outs s) /\ Pending s.

  Lemma upd_same f i (t : task) : upd Sn Sig f i t i = t.
  Proof. unfold upd. rewrite Nat.eqb_refl. reflexivity. Qed.
  Lemma upd_other f i j (t : task) : j <> i -> upd Sn Sig f i t j = f j.
  Proof. intros Hn. unfold upd. destruct (Nat.eqb_spec j i); [contradiction|reflexivity]. Qed.

  Lemma outs_upd s i t' cache' owner' j :
    outs {| p_cache := cache'; p_owner := owner'; p_tasks := upd Sn Sig (p_tasks _ _ s) i t' |} j =
    if Nat.eqb j i then map snd (t_out _ _ t') else outs s j.
  Proof.
    unfold outs. cbn [p_tasks].
    destruct (Nat.eqb_spec j i) as [->|Hn]; [rewrite upd_same|rewrite upd_other by exact Hn]; reflexivity.
  Qed.

  Lemma once_ext cache o o' : (forall j, o' j = o j) -> Once cache o -> Once cache o'.
  Proof.
    intros He (O1 & O2 & O3). split; [|split].
    - intros i g. rewrite He. apply O1.
    - intros i. rewrite He. apply O2.
    - intros i j g. rewrite !He. apply O3.
  Qed.

  Lemma once_store cache o i g : Once cache o -> ~ In g cache ->
    Once (g :: cache) (fun j => if Nat.eqb j i then o i ++ [g] else o j).
  Proof.
    intros (O1 & O2 & O3) Hg. assert (Hnf : forall j, ~ In g (o j)) by (intros j Hj; exact (Hg (O1 j g Hj))).
    (* g was in no output: the new outputs hold what the old ones held, and g in task i *)
    assert (Hc : forall j x, In x (if Nat.eqb j i then o i ++ [g] else o j) -> In x (o j) \/ x = g /\ j = i).
    { intros j x. destruct (Nat.eqb_spec j i) as [->|_]; [|auto]. rewrite in_app_iff.
      intros [Hx|[<-|[]]]; [left; exact Hx|right; split; reflexivity]. }
    split; [|split].
    - intros j x Hx. destruct (Hc j x Hx) as [Hx'|[-> _]]; [right; exact (O1 j x Hx')|left; reflexivity].
    - intros j. destruct (Nat.eqb j i); [|apply O2].
      apply NoDup_snoc; [apply O2|exact (Hnf i)].
    - intros j k x Hjk Hj Hk. destruct (Hc j x Hj) as [Hj'|[-> ->]].
      + destruct (Hc k x Hk) as [Hk'|[-> _]]; [exact (O3 j k x Hjk Hj' Hk')|exact (Hnf j Hj')].
      + destruct (Hc k g Hk) as [Hk'|[_ ->]]; [exact (Hnf k Hk')|exact (Hjk eq_refl)].
  Qed.

  Lemma pubinv_init batches : PubInv (pinit Sn Sig batches).
  Proof.
    split; [|discriminate]. unfold Once, outs. cbn. repeat split; try contradiction. constructor.
  Qed.

  (* a task that may step is the only one that can be pending (another would own the lock), so after its step only
     its own new state has to be looked at *)
  Lemma pending_step s i t' cache' owner' :
    Pending s -> match p_owner _ _ s with Some o => Nat.eqb o i | None => true end = true ->
    (forall ss, t_pend _ _ t' = Some ss -> owner' = Some i /\ ~ In (snd ss) cache') ->
    Pending {| p_cache := cache'; p_owner := owner'; p_tasks := upd Sn Sig (p_tasks _ _ s) i t' |}.
  Proof.
    intros HPend Hmay Ht' j ss. cbn [p_tasks p_cache p_owner].
    destruct (Nat.eq_dec j i) as [->|Hn]; [rewrite upd_same; apply Ht'|rewrite upd_other by exact Hn].
    intros Hp. destruct (HPend j ss Hp) as [Ho _].
    rewrite Ho in Hmay. apply Nat.eqb_eq in Hmay. contradiction.
  Qed.

  Lemma pubinv_step s i : PubInv s -> PubInv (pstep true s i).
  Proof.
    intros HInv. pose proof HInv as (HOnce & HPend). unfold PubConc.pstep.
    set (t := p_tasks _ _ s i).
    destruct (match p_owner _ _ s with Some o => Nat.eqb o i | None => true end) eqn:Hmay; cbn [negb orb]; [|exact HInv].
    destruct (idle Sn Sig t); [exact HInv|].
    destruct (t_pend _ _ t) as [ss|] eqn:Hp.
    - split; [|apply pending_step; [exact HPend|exact Hmay|discriminate]].
      apply (once_ext _ (fun j => if Nat.eqb j i then outs s i ++ [snd ss] else outs s j)).
      + intros j. rewrite outs_upd. cbn [t_out]. rewrite map_app. reflexivity.
      + apply once_store; [exact HOnce|exact (proj2 (HPend i ss Hp))].
    - (* lookup, found or not: nothing forwarded, nothing remembered; if not found the task keeps the lock *)
      destruct (t_todo _ _ t) as [|ss r]; [exact HInv|]. split.
      + revert HOnce. apply once_ext. intros j. rewrite outs_upd.
        destruct (Nat.eqb_spec j i) as [->|_]; [destruct seen|]; reflexivity.
      + apply pending_step; [exact HPend|exact Hmay|].
        destruct (seen Sig Sig_eqb (p_cache _ _ s) (snd ss)) eqn:Hseen; [discriminate|]. cbn [t_pend]. intros ss' [= <-].
        split; [unfold idle; cbn [t_todo t_pend andb]; destruct r; reflexivity|].
        intros Hin. apply (seen_in Sig Sig_eqb Sig_eqb_eq) in Hin. congruence.
  Qed.

  (* C19: every schedule, any number of tasks: no signature is forwarded by two tasks, nor twice by one *)
  Theorem locked_publisher_once batches sched :
    let s := prun Sn Sig Sig_eqb true (pinit Sn Sig batches) sched in
    (forall i, NoDup (map snd (t_out _ _ (p_tasks _ _ s i)))) /\
    (forall i j g, i <> j -> fwd s i g -> fwd s j g -> False).
  Proof using Sig_eqb_eq.
    intros s. assert (Hinv : PubInv s).
    { apply (fold_left_inv_any _ PubInv); [exact pubinv_step|apply pubinv_init]. }
    (* [outs s i] unfolds to the list in the first conjunct, [fwd s i g] to [In g (outs s i)] *)
    destruct Hinv as ((_ & Hnodup & Hdisj) & _). split; [exact Hnodup|exact Hdisj].
  Qed.
End PubConcProofs.

(* the code before fix 36f634f: two tasks, one shared signed snapshot, four steps *)
Example unlocked_forwards_twice :
  let s := prun N N N.eqb false (pinit N N [[(7, 42)]; [(7, 42)]]) [0; 1; 0; 1]%nat in
  t_out _ _ (p_tasks _ _ s 0%nat) = [(7, 42)] /\ t_out _ _ (p_tasks _ _ s 1%nat) = [(7, 42)].
Proof. vm_compute. split; reflexivity. Qed.
Example locked_same_schedule :
  let s := prun N N N.eqb true (pinit N N [[(7, 42)]; [(7, 42)]]) [0; 1; 0; 1; 1; 1]%nat in
  t_out _ _ (p_tasks _ _ s 0%nat) = [(7, 42)] /\ t_out _ _ (p_tasks _ _ s 1%nat) = [].
Proof. vm_compute. split; reflexivity. Qed.
