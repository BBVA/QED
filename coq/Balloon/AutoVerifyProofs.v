(* The client's AutoVerify entry points are sound with respect to the version(s) the CALLER asked about, given an
   authentic snapshot store; the code before fix 38c5ded was not
   (witness: C02_auto_verify_pinned_refuted in Properties/C02.v). *)
From QV Require Import Base.Util Base.HashSig History.HistSpec History.HistModel History.HistProofs Hyper.HyperModel
  Balloon.Balloon Balloon.BalloonProofs Balloon.AutoVerify.

Section AutoVerifyProofs.
  Variables D E V : Type.
  Variable H : hin D E V -> D.
  Variable nbits : nat.
  Variable kbits : E -> key.
  Variable vval : N -> V.
  Variable D_eqb : D -> D -> bool.
  Variable E_eqb : E -> E -> bool.
  Hypothesis H_inj : forall a b, H a = H b -> a = b.
  Hypothesis D_eqb_eq : forall a b, D_eqb a b = true <-> a = b.

  (* the assumption about the snapshot store the client verifies against: what it holds for version q carries the history
     digest of the log A at q (whatever hyper digest); a version it does not have: None *)
  Definition authentic (A : N -> E) (S : N -> option (D * D)) : Prop :=
    forall q h y, S q = Some (h, y) -> h = root D E V H A q.

  Lemma auto_verify_gen_accept chk (dv : D -> D -> verdict) (S : N -> option (D * D)) requested q cur act :
    auto_verify_gen D chk dv S requested q cur act = Accept ->
    (chk = true -> forall v, requested = Some v -> q = v) /\
    exists hist hyp y, S q = Some (hist, hyp) /\ dv hist y = Accept.
  Proof.
    unfold auto_verify_gen. intros Hacc. split.
    - intros -> v ->. destruct (N.eqb_spec q v); [assumption|discriminate].
    - destruct (_ && _); [discriminate|]. destruct (S q) as [[hist hyp]|]; [|discriminate].
      destruct (cur =? act); [exists hist, hyp, hyp; auto|].
      destruct (S cur) as [[h2 y2]|]; [exists hist, hyp, y2; auto|discriminate].
  Qed.

  Lemma auto_verify_accept (A : N -> E) (S : N -> option (D * D)) chk requested (a : answer D E V) (d : E) :
    authentic A S ->
    auto_verify D E V H nbits kbits vval D_eqb E_eqb chk S requested a d = Accept ->
    (chk = true -> forall v, requested = Some v -> a_query _ _ _ a = v) /\
    a_exists _ _ _ a = true /\ d = A (a_actual _ _ _ a) /\ a_actual _ _ _ a <= a_query _ _ _ a.
  Proof.
    intros HS Hacc. apply auto_verify_gen_accept in Hacc. destruct Hacc as (Hq & hist & hyp & y & Hs & Hdv).
    rewrite (HS _ _ _ Hs) in Hdv.
    destruct (digest_verify_sound D E V H nbits kbits vval D_eqb E_eqb H_inj D_eqb_eq A a d _ y Hdv) as (Hex & Hle & Hd & _).
    exact (conj Hq (conj Hex (conj Hd Hle))).
  Qed.

  Theorem auto_verify_sound (A : N -> E) (S : N -> option (D * D)) (a : answer D E V) (d : E) (v : N) :
    authentic A S ->
    auto_verify D E V H nbits kbits vval D_eqb E_eqb true S (Some v) a d = Accept ->
    a_exists _ _ _ a = true /\ d = A (a_actual _ _ _ a) /\ a_actual _ _ _ a <= v.
  Proof using H_inj D_eqb_eq.
    intros HS Hacc. destruct (auto_verify_accept A S _ _ a d HS Hacc) as (Hq & Hex & Hd & Hle).
    rewrite <- (Hq eq_refl v eq_refl). exact (conj Hex (conj Hd Hle)).
  Qed.

  (* without a requested version (requested = None: query at the newest version) the claim is relative to the version the
     answer names *)
  Theorem auto_verify_sound_latest (A : N -> E) (S : N -> option (D * D)) (a : answer D E V) (d : E) chk :
    authentic A S ->
    auto_verify D E V H nbits kbits vval D_eqb E_eqb chk S None a d = Accept ->
    a_exists _ _ _ a = true /\ d = A (a_actual _ _ _ a) /\ a_actual _ _ _ a <= a_query _ _ _ a.
  Proof using H_inj D_eqb_eq. intros HS Hacc. exact (proj2 (auto_verify_accept A S _ _ a d HS Hacc)). Qed.

  (* IncrementalAutoVerify(s, e): an accepted answer is about the pair that was asked for.  0 < pe excludes the degenerate
     proof with end version 0, which reads both digests from one path entry (incremental_sound) *)
  Theorem incr_auto_verify_sound (A : N -> E) (S : N -> option (D * D)) (s e : N) (p : list (pos * D)) (ps pe : N) :
    authentic A S -> ps <= pe -> 0 < pe ->
    incr_auto_verify D E V H D_eqb S s e p ps pe = Accept -> ps = s /\ pe = e.
  Proof using H_inj D_eqb_eq.
    intros HS Hle Hpos. unfold incr_auto_verify.
    destruct (S s) as [[hs ys]|] eqn:Hs; [|discriminate]. destruct (S e) as [[he ye]|] eqn:He; [|discriminate].
    pose proof (HS _ _ _ Hs) as E1. pose proof (HS _ _ _ He) as E2. subst hs he.
    intros Hr. apply (incremental_verify_accept D E V H D_eqb D_eqb_eq) in Hr.
    destruct (incremental_sound D E V H H_inj A A (path_get p) ps pe s e Hle Hr) as (_ & F & _).
    exact (F Hpos).
  Qed.
End AutoVerifyProofs.
