(* The balloon behind Add/AddBulk and its queries: one invariant of every reachable state, from which the completeness of the
   server's answers follows; the client verifiers are characterised by what makes them accept. *)
From QV Require Import Base.Util Base.Facts Base.HashSig History.HistModel History.HistSpec History.HistProofs
  Hyper.HyperModel Hyper.HyperProofs Hyper.HyperMap Balloon.Balloon.

Section BalloonProofs.
  Variables D E V : Type.
  Variable H : hin D E V -> D.
  Variable nbits limit : nat.
  Variable kbits : E -> key.
  Variable vval : N -> V.
  Variable vnum : V -> N.
  Variable D_eqb : D -> D -> bool.
  Variable E_eqb : E -> E -> bool.
  Variable e0 : E.

  Notation ds := (dlist D E V H nbits).
  Notation state := (state D V).
  Notation add_bulk := (add_bulk D E V H nbits limit ds kbits vval).
  Notation init := (init D V).
  Notation hget := (hget D V).
  Notation root := (root D E V H).
  Notation bver := (b_version D V).
  Notation bmap := (b_hmap D V).

  Hypothesis kbits_len : forall e, length (kbits e) = nbits.

  Definition logf (evs : list E) : N -> E := fun i => nth (N.to_nat i) evs e0.

  Inductive reach : state -> list E -> Prop :=
  | reach_init : reach init []
  | reach_add st evs new snaps st' :
      reach st evs -> add_bulk st new = Some (snaps, st') -> reach st' (evs ++ new).

  Record Inv (st : state) (evs : list E) : Prop := {
    inv_version : bver st = N.of_nat (length evs);
    inv_store : forall A, (forall i, (i < length evs)%nat -> A (N.of_nat i) = nth i evs e0) ->
                GetOK D E V H A (hget st) (bver st);
    inv_tree : b_tree _ _ st = ytree_of D E V H limit nbits ds (bmap st);
    inv_nodup : NoDup (map fst (bmap st));
    inv_klen : forall k, In k (map fst (bmap st)) -> length k = nbits;
    inv_vals : forall k w, map_get V (bmap st) k = Some w ->
               exists i, (i < length evs)%nat /\ w = vval (N.of_nat i) /\ kbits (nth i evs e0) = k;
    inv_all : forall i, (i < length evs)%nat -> map_get V (bmap st) (kbits (nth i evs e0)) <> None
  }.

  Lemma logf_nat evs i : logf evs (N.of_nat i) = nth i evs e0.
  Proof. unfold logf. rewrite Nat2N.id. reflexivity. Qed.
  Lemma logf_app1 evs new i : i < N.of_nat (length evs) -> logf (evs ++ new) i = logf evs i.
  Proof. intros Hi. unfold logf. apply app_nth1. lia. Qed.
  Lemma logf_app2 evs new k : logf (evs ++ new) (N.of_nat (length evs) + k) = logf new k.
  Proof. unfold logf. rewrite app_nth2 by lia. f_equal. lia. Qed.

  (* Inv.inv_store speaks of every A that agrees with evs, so that add_bulk_Inv can take A := logf (evs ++ new) before
     the call; nothing is lost by reading it at logf evs alone *)
  Lemma inv_store_logf st evs : bver st = N.of_nat (length evs) -> GetOK D E V H (logf evs) (hget st) (bver st) ->
    forall A, (forall i, (i < length evs)%nat -> A (N.of_nat i) = nth i evs e0) -> GetOK D E V H A (hget st) (bver st).
  Proof.
    intros Hv Hg A HA. apply (GetOK_ext D E V H (logf evs)); [|exact Hg].
    intros i Hi. unfold logf. rewrite <- (HA (N.to_nat i)), N2Nat.id by lia. reflexivity.
  Qed.

  Lemma versions_from_spec v n : versions_from v n = map (fun k => v + N.of_nat k) (seq 0 n).
  Proof.
    revert v. induction n as [|n IH]; intros v; cbn [versions_from seq map]; [reflexivity|].
    rewrite N.add_0_r. f_equal. rewrite IH, <- seq_shift, map_map. apply map_ext. intros a. lia.
  Qed.

  (* what one call sets in the hyper map *)
  Definition settings (v0 : N) (new : list E) := combine (map kbits new) (map vval (versions_from v0 (length new))).

  Lemma settings_spec v0 new :
    settings v0 new = map (fun j => (kbits (nth j new e0), vval (v0 + N.of_nat j))) (seq 0 (length new)).
  Proof.
    unfold settings. rewrite versions_from_spec, map_map, <- combine_map, <- (map_map (fun j => nth j new e0) kbits), map_nth_seq.
    reflexivity.
  Qed.

  Lemma settings_keys v0 new : map fst (settings v0 new) = map kbits new.
  Proof. rewrite settings_spec, map_map. cbn [fst]. rewrite <- (map_map _ kbits), map_nth_seq. reflexivity. Qed.

  Lemma inv_init : Inv init [].
  Proof.
    constructor; cbn.
    - reflexivity.
    - intros A _ i h _ Hf. pose proof (pow2_pos h). lia.
    - destruct nbits; reflexivity. (* ybuild recurses on the height *)
    - constructor.
    - intros k [].
    - intros k w Hd. discriminate.
    - intros i Hi. lia.
  Qed.

  Lemma add_bulk_Inv st evs new : Inv st evs ->
    exists st', add_bulk st new =
      Some (map (fun k => {| s_event := nth k new e0;
                             s_hist := root (logf (evs ++ new)) (N.of_nat (length evs + k));
                             s_hyper := yroot D E V H ds (b_tree _ _ st');
                             s_version := N.of_nat (length evs + k) |}) (seq 0 (length new)), st') /\
      GetOK D E V H (logf (evs ++ new)) (hget st') (bver st') /\
      bver st' = N.of_nat (length (evs ++ new)) /\
      bmap st' = map_add_bulk V (bmap st) (settings (bver st) new) /\
      b_tree _ _ st' = ytree_of D E V H limit nbits ds (bmap st').
  Proof.
    intros HI. pose proof (inv_version _ _ HI) as Hv.
    destruct (tree_add_bulk_correct D E V H (logf (evs ++ new)) (hget st) e0 new (bver st)) as (muts & Htab & Hg).
    - (* the log evs ++ new continues with new from bver st on *)
      intros k _. rewrite Hv, logf_app2. apply logf_nat.
    - (* it agrees with evs below, so the store is good for it *)
      apply (inv_store _ _ HI). intros i Hi. rewrite logf_app1 by lia. apply logf_nat.
    - unfold Balloon.add_bulk. rewrite Htab. eexists.
      (* the state is the one add_bulk builds (reflexivity); then the snapshots, which mention its tree *)
      split; [apply f_equal, f_equal2; [|reflexivity]|].
      + (* new, the digests, the versions: each a map over the same seq, so their combine is one map *)
        rewrite versions_from_spec, (combine_nth_seq e0), combine_map, map_map.
        apply map_ext. intros k. cbn [fst snd]. rewrite Hv, Nat2N.inj_add. reflexivity.
      + refine (conj _ (conj _ (conj eq_refl eq_refl))); [|cbn [Balloon.b_version]; rewrite app_length; lia].
        intros i h Ha Hf. unfold Balloon.hget. cbn [b_store]. rewrite (Facts.assoc_app pos_eqb).
        (* the left side is store_apply (hget st) muts (i, h), unfolded *)
        exact (Hg i h Ha Hf).
  Qed.

  Lemma inv_step st evs new snaps st' : Inv st evs -> add_bulk st new = Some (snaps, st') -> Inv st' (evs ++ new).
  Proof.
    intros HI Hadd. destruct (add_bulk_Inv st evs new HI) as (st2 & Hadd' & Hg & Hv' & Hmap & Htree).
    rewrite Hadd in Hadd'. injection Hadd' as _ <-.
    refine {| inv_version := Hv'; inv_tree := Htree; inv_store := _; inv_nodup := _; inv_klen := _; inv_vals := _; inv_all := _ |}.
    - exact (inv_store_logf _ _ Hv' Hg).
    - rewrite Hmap. apply map_add_bulk_nodup, (inv_nodup _ _ HI).
    - intros k. rewrite Hmap, map_add_bulk_keys, settings_keys, in_map_iff.
      intros [(e & <- & _)|Hk]; [apply kbits_len|exact (inv_klen _ _ HI k Hk)].
    - intros k w. rewrite Hmap, map_add_bulk_lookup, map_get_app.
      destruct (map_get V (settings (bver st) new) k) as [w'|] eqn:Hs.
      + intros [= ->]. apply map_get_some_in in Hs. rewrite settings_spec in Hs.
        apply in_map_iff in Hs. destruct Hs as (j & [= <- <-] & Hj). apply in_seq in Hj.
        exists (length evs + j)%nat. rewrite app_length, app_nth2, (inv_version _ _ HI) by lia.
        split; [lia|]. split; [f_equal; lia|do 2 f_equal; lia].
      + intros Hold. destruct (inv_vals _ _ HI k w Hold) as (i & Hi & Hw & Hk). exists i.
        rewrite app_length, app_nth1 by exact Hi. split; [lia|auto].
    - intros i Hi. rewrite app_length in Hi. rewrite Hmap, map_add_bulk_lookup, map_get_app.
      destruct (map_get V (settings (bver st) new) _) eqn:Hs; [discriminate|].
      apply map_get_none in Hs. rewrite settings_keys in Hs. destruct (lt_dec i (length evs)) as [Hold|Hnw].
      + rewrite app_nth1 by exact Hold. exact (inv_all _ _ HI i Hold).
      + destruct Hs. rewrite app_nth2 by lia. apply in_map, nth_In. lia.
  Qed.

  Theorem reach_inv st evs : reach st evs -> Inv st evs.
  Proof using kbits_len.
    induction 1 as [|st evs new snaps st' Hr IH Hadd]; [exact inv_init|].
    exact (inv_step st evs new snaps st' IH Hadd).
  Qed.

  Lemma every_event_known st evs i :
    reach st evs -> (i < length evs)%nat -> map_get V (bmap st) (kbits (nth i evs e0)) <> None.
  Proof using kbits_len. intros Hr. exact (inv_all _ _ (reach_inv _ _ Hr) i). Qed.

  Lemma inv_store_ok st evs : Inv st evs -> 0 < bver st -> StoreOK D E V H (logf evs) (hget st) (bver st - 1).
  Proof.
    intros HI Hpos. apply StoreOK_GetOK. rewrite N.sub_add by lia.
    apply (inv_store _ _ HI). intros i _. apply logf_nat.
  Qed.

  Lemma current_version_pos st : 0 < bver st < W64 -> current_version D V st = bver st - 1.
  Proof. intros Hb. apply mod_wrap_pred; lia. Qed.

  Lemma consistency_answer_verifies st evs s e :
    reach st evs -> s <= e -> e < bver st ->
    exists p, query_consistency D E V H st s e = Some (Some p) /\
              incremental_roots D E V H (path_get p) s e = (Some (root (logf evs) s), Some (root (logf evs) e)).
  Proof.
    intros Hr Hse He.
    destruct (incremental_complete D E V H (logf evs) (hget st) (bver st - 1)
                (inv_store_ok _ _ (reach_inv _ _ Hr) ltac:(lia)) s e Hse ltac:(lia)) as (p & Hp & Hroots).
    exists p. split; [|exact Hroots]. unfold query_consistency.
    rewrite !(proj2 (N.leb_gt _ _)), (proj2 (N.ltb_ge _ _)), Hp by lia. reflexivity.
  Qed.

  (* C04 / C05 at the balloon level: in every reachable state, whatever calls led to it, Balloon.AddBulk(new) returns for
     its k-th event the snapshot (event, history root of version |evs|+k over the log evs ++ new, hyper root of the
     resulting map, version |evs|+k) *)
  Theorem snapshots_canonical st evs new snaps st' :
    reach st evs -> add_bulk st new = Some (snaps, st') ->
    snaps = map (fun k => {| s_event := nth k new e0;
                             s_hist := root (logf (evs ++ new)) (N.of_nat (length evs + k));
                             s_hyper := yroot D E V H ds (ytree_of D E V H limit nbits ds (bmap st'));
                             s_version := N.of_nat (length evs + k) |}) (seq 0 (length new)) /\
    bmap st' = map_add_bulk V (bmap st) (combine (map kbits new) (map vval (versions_from (bver st) (length new)))) /\
    bver st' = N.of_nat (length (evs ++ new)).
  Proof using kbits_len.
    intros Hr Hadd. destruct (add_bulk_Inv st evs new (reach_inv _ _ Hr)) as (st2 & Hadd' & _ & Hv' & Hmap & Htree).
    rewrite Hadd in Hadd'. injection Hadd' as -> ->. rewrite Htree. auto.
  Qed.

  (* the Go code panics only on the empty bulk, which the model does not distinguish: see C11 *)
  Theorem add_total st evs new : reach st evs -> exists snaps st', add_bulk st new = Some (snaps, st').
  Proof using e0 kbits_len.
    intros Hr. destruct (add_bulk_Inv st evs new (reach_inv _ _ Hr)) as (st' & Hadd & _). eauto.
  Qed.

  (* C04, grouping independence: for distinct events the hyper map (hence the hyper digest) of a
     reachable state is the same list whatever split into calls produced it *)
  Theorem hmap_of_distinct_events st evs :
    reach st evs -> NoDup (map kbits evs) ->
    bmap st = map (fun i => (kbits (nth i evs e0), vval (N.of_nat i))) (seq 0 (length evs)).
  Proof using kbits_len.
    induction 1 as [|st evs new snaps st' Hr IH Hadd]; intros Hnd; [reflexivity|].
    rewrite map_app in Hnd. apply NoDup_app in Hnd. destruct Hnd as (Hnd1 & Hnd2 & Hdisj). specialize (IH Hnd1).
    destruct (add_bulk_Inv st evs new (reach_inv _ _ Hr)) as (st2 & Hadd' & _ & _ & Hmap & _).
    rewrite Hadd in Hadd'. injection Hadd' as _ <-.
    rewrite Hmap, map_add_bulk_fresh.
    - rewrite IH, settings_spec, (inv_version _ _ (reach_inv _ _ Hr)), app_length, seq_app, map_app. apply f_equal2.
      + apply map_ext_in. intros i Hi. apply in_seq in Hi. rewrite app_nth1 by lia. reflexivity.
      + rewrite (seq_add (0 + length evs)), map_map. apply map_ext. intros j.
        rewrite app_nth2 by lia. do 3 f_equal; lia.
    - rewrite settings_keys. exact Hnd2.
    - rewrite settings_keys. intros k Hin Hin2. rewrite IH, map_map in Hin2. cbn [fst] in Hin2.
      rewrite <- (map_map _ kbits), map_nth_seq in Hin2. exact (Hdisj k Hin2 Hin).
  Qed.

  Hypothesis H_inj : forall a b, H a = H b -> a = b.
  Hypothesis D_eqb_eq : forall a b, D_eqb a b = true <-> a = b.

  Notation digest_verify := (digest_verify D E V H nbits kbits vval D_eqb E_eqb).

  Lemma eqb_accept (r h : D) : (if D_eqb r h then Accept else Reject) = Accept <-> r = h.
  Proof using D_eqb_eq. rewrite <- D_eqb_eq. destruct (D_eqb r h); split; congruence. Qed.

  Lemma incremental_verify_accept p s e hs he :
    incremental_verify D E V H D_eqb p s e hs he = Accept <->
    incremental_roots D E V H (path_get p) s e = (Some hs, Some he).
  Proof using D_eqb_eq.
    unfold incremental_verify. destruct incremental_roots as [[a|] [b|]]; try (split; discriminate).
    destruct (D_eqb a hs) eqn:Ha; cbn [andb].
    - apply D_eqb_eq in Ha. subst a. rewrite eqb_accept. split; congruence.
    - split; [discriminate|]. intros [= -> _]. rewrite (proj2 (D_eqb_eq _ _) eq_refl) in Ha. discriminate.
  Qed.

  Lemma history_verify_accept (a : answer D E V) d h :
    history_verify D E V H D_eqb a d h = Accept <->
    exists p, a_history _ _ _ a = Some p /\
              membership_root D E V H (path_get p) (a_actual _ _ _ a) (a_query _ _ _ a) d = Some h.
  Proof using D_eqb_eq.
    unfold Balloon.history_verify. destruct (a_history _ _ _ a) as [p|]; [|split; [discriminate|intros (p & [=] & _)]].
    destruct (membership_root D E V H (path_get p) _ _ d) as [r|] eqn:Hm.
    - rewrite eqb_accept. split; [intros ->; eauto|intros (p' & [= <-] & Hm'); congruence].
    - split; [discriminate|intros (p' & [= <-] & Hm'); congruence].
  Qed.

  Lemma digest_verify_accept (a : answer D E V) d h y :
    digest_verify a d h y = Accept <->
    a_exists _ _ _ a = true /\ a_actual _ _ _ a <= a_query _ _ _ a /\
    hyper_verify D E V H nbits kbits D_eqb E_eqb a d y (vval (a_actual _ _ _ a)) = Accept /\
    history_verify D E V H D_eqb a d h = Accept.
  Proof using Type.
    unfold Balloon.digest_verify. destruct (a_exists _ _ _ a); cbn [negb orb]; [|split; [discriminate|intros ([=] & _)]].
    destruct (N.ltb_spec (a_query _ _ _ a) (a_actual _ _ _ a)) as [Hlt|Hle].
    - split; [discriminate|]. intros (_ & Hle & _). destruct (proj1 (N.lt_nge _ _) Hlt Hle).
    - destruct hyper_verify; [|split; [discriminate|intros (_ & _ & [=] & _)]].
      destruct history_verify; [|split; [discriminate|intros (_ & _ & _ & [=])]]. split; auto.
  Qed.

  (* C02: DigestVerify accepted against the authentic history digest of version v of log A names an event of A; the hyper
     digest and the hyper proof play no part (discarded in the proof) *)
  Theorem digest_verify_sound (A : N -> E) (a : answer D E V) (d : E) (v : N) (hyper_digest : D) :
    digest_verify a d (root A v) hyper_digest = Accept ->
    a_exists _ _ _ a = true /\ a_actual _ _ _ a <= a_query _ _ _ a /\
    d = A (a_actual _ _ _ a) /\ a_actual _ _ _ a <= v.
  Proof using H_inj D_eqb_eq.
    intros Hacc. apply digest_verify_accept in Hacc. destruct Hacc as (Hex & Hqa & _ & Hh).
    apply history_verify_accept in Hh. destruct Hh as (p & _ & Hm).
    destruct (membership_sound D E V H H_inj A (path_get p) _ _ v d Hqa Hm) as [Hd Hle]. auto.
  Qed.

  Hypothesis limit_lt : (limit < nbits)%nat.
  Hypothesis nbits_small : N.of_nat nbits < 65536.
  Hypothesis kbits_inj : forall a b, kbits a = kbits b -> a = b.
  Hypothesis vnum_vval : forall v, v < W64 -> vnum (vval v) = v.
  Hypothesis E_eqb_eq : forall a b, E_eqb a b = true <-> a = b.

  Notation query_c := (query_membership_consistency D E V H nbits ds kbits vnum).

  Lemma inv_value st evs k w : Inv st evs -> N.of_nat (length evs) < W64 -> map_get V (bmap st) k = Some w ->
    vval (vnum w) = w /\ kbits (logf evs (vnum w)) = k.
  Proof using vnum_vval.
    clear limit_lt nbits_small. (* without it Qed fails: lia uses them and Proof using does not list them *)
    intros HI Hlen Hg. destruct (inv_vals _ _ HI k w Hg) as (i & Hi & -> & Hk).
    rewrite vnum_vval, logf_nat by lia. auto.
  Qed.

  (* C01: for an accepted event d and every query version q from its reported version up to the current one, the server's
     answer verifies against the history digest of snapshot q and the current hyper digest *)
  Theorem membership_answer_verifies st evs d w q :
    reach st evs -> N.of_nat (length evs) < W64 ->
    map_get V (bmap st) (kbits d) = Some w -> vnum w <= q -> q < bver st ->
    exists a, query_c st d q = QOk D E V a /\
              a_exists _ _ _ a = true /\ a_actual _ _ _ a = vnum w /\ a_query _ _ _ a = q /\
              a_current _ _ _ a = bver st - 1 /\
              nth (N.to_nat (vnum w)) evs e0 = d /\
              digest_verify a d (root (logf evs) q) (hyper_digest D E V H ds st) = Accept.
  Proof using kbits_len D_eqb_eq limit_lt nbits_small kbits_inj vnum_vval E_eqb_eq.
    intros Hr Hlen Hget Hwq Hq. pose proof (reach_inv _ _ Hr) as HI.
    pose proof (inv_version _ _ HI) as Hver. (* for the lia calls below, which alone read it *)
    destruct (inv_value st evs _ w HI Hlen Hget) as (Hvv & Hd). apply kbits_inj in Hd.
    (* the two completeness theorems: the hyper tree finds w with a path to its root, the history tree proves (vnum w, q) *)
    (* hyper_complete asks, per listed pair, for the key length and for distinct keys *)
    pose proof (hyper_complete D E V H limit nbits ds (bmap st) (kbits d) w limit_lt nbits_small
                  (fun kv Hkv => inv_klen _ _ HI (fst kv) (in_map fst _ _ Hkv))
                  (nodup_keys_uniq V _ (inv_nodup _ _ HI)) (map_get_some_in V _ _ _ Hget)) as Hhc.
    destruct (membership_complete D E V H (logf evs) (hget st) (bver st - 1) (inv_store_ok _ _ HI ltac:(lia)) (vnum w) q Hwq ltac:(lia))
      as (p & Hp & Hmr).
    unfold Balloon.query_membership_consistency, Balloon.hyper_digest, hyper_tree.
    rewrite current_version_pos, (inv_tree _ _ HI), (proj2 (N.ltb_ge _ _)) by lia.
    (* Hhc : let '(v, p) := hyper_find .. in v = Some w /\ p <> [] /\ hyper_root_of_proof .. p .. = Some root *)
    cbn zeta in Hhc. destruct hyper_find as [val [|x hp]]; destruct Hhc as (-> & Hne & Hroot); [contradiction|].
    rewrite (proj2 (N.leb_le _ _) Hwq), Hp. eexists.
    repeat (split; [reflexivity|]). split; [exact Hd|].
    apply digest_verify_accept. cbn [a_exists a_actual a_query]. rewrite Hvv. repeat split; [exact Hwq| |].
    - unfold Balloon.hyper_verify. cbn [a_hyper_path a_key].
      rewrite Hroot, (proj2 (E_eqb_eq d d) eq_refl), (proj2 (D_eqb_eq _ _) eq_refl). reflexivity.
    - apply history_verify_accept. exists p. split; [reflexivity|]. rewrite Hd in Hmr. exact Hmr.
  Qed.

  (* C13 (membership answers).  For a genuine answer to a query at q <= current, the proof object the server built and its wire form
     (history proof rebuilt at (ActualVersion, QueryVersion), hyper value rebuilt from ActualVersion) give the
     same verdict for every digest and every pair of snapshot digests. *)
  Theorem wire_preserves_verdict st evs d q a :
    reach st evs -> N.of_nat (length evs) < W64 -> q < bver st ->
    query_c st d q = QOk D E V a ->
    forall d' h y, object_verify D E V H nbits kbits D_eqb E_eqb a d' h y = digest_verify a d' h y.
  Proof using e0 kbits_len limit_lt nbits_small vnum_vval. (* limit_lt, nbits_small: premises of the statement that no step needs (DESIGN 3.4) *)
    intros Hr Hlen Hq Hqc d' h y. pose proof (reach_inv _ _ Hr) as HI. pose proof (inv_version _ _ HI) as Hver.
    unfold Balloon.query_membership_consistency, hyper_tree in Hqc.
    rewrite current_version_pos, (inv_tree _ _ HI), (proj2 (N.ltb_ge _ _)) in Hqc by lia.
    destruct hyper_find as [[w|] hp] eqn:Hfind.
    - destruct (vnum w <=? q); [|discriminate]. destruct prove_membership as [p|]; [|discriminate].
      injection Hqc as <-. unfold Balloon.object_verify, Balloon.digest_verify, Balloon.history_verify.
      cbn [a_exists a_actual a_query a_hyper_value a_history a_hist_index a_hist_version negb orb].
      (* the stored value is rebuilt from ActualVersion: the same value *)
      apply (hyper_find_in D E V H limit), (map_get_in V _ _ _ (inv_nodup _ _ HI)) in Hfind.
      destruct (inv_value st evs _ w HI Hlen Hfind) as (-> & _). reflexivity.
    - injection Hqc as <-. reflexivity.
  Qed.

  (* C05 at the balloon level: a call numbers its events |evs|, |evs|+1, ... in the order given, and leaves the version
     counter at |evs ++ new|, where the next call starts *)
  Theorem bulk_consecutive st evs new snaps st' :
    reach st evs -> add_bulk st new = Some (snaps, st') ->
    map (fun s => (s_event D E s, s_version D E s)) snaps =
      map (fun k => (nth k new e0, N.of_nat (length evs + k))) (seq 0 (length new)) /\
    bver st' = N.of_nat (length (evs ++ new)).
  Proof using kbits_len.
    intros Hr Hadd. destruct (snapshots_canonical st evs new snaps st' Hr Hadd) as (Hs & _ & Hv).
    split; [|exact Hv]. rewrite Hs, map_map. reflexivity.
  Qed.

  (* C05: the answer carries the current version *)
  Theorem current_version_reported st evs d w q :
    reach st evs -> N.of_nat (length evs) < W64 ->
    map_get V (bmap st) (kbits d) = Some w -> vnum w <= q -> q < bver st ->
    exists a, query_c st d q = QOk D E V a /\ a_current _ _ _ a = N.of_nat (length evs) - 1.
  Proof using e0 kbits_len D_eqb_eq limit_lt nbits_small kbits_inj vnum_vval E_eqb_eq.
    intros Hr Hlen Hget Hwq Hq.
    destruct (membership_answer_verifies st evs d w q Hr Hlen Hget Hwq Hq) as (a & Ha & _ & _ & _ & Hc & _).
    exists a. split; [exact Ha|]. rewrite Hc, (inv_version _ _ (reach_inv _ _ Hr)). reflexivity.
  Qed.
End BalloonProofs.
