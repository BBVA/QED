(* Byte-level unambiguity of the hash input formats (DESIGN 3.2, item (b)).
   [Layout.encG] is the byte layout of what the Go code feeds to SHA-256 (its Uint63 instance [ShaInst.enc] is tied
   to the code by every correspondence run that compares a root hash).  Here: on well-formed inputs (32-byte digests,
   fixed-length values, positions of a fixed key length, heights below 2^16, indexes below 2^64, partial nodes above
   the leaves) two inputs with the same bytes are the same input.  Hence a failure of the injectivity premise [H_inj]
   of the soundness theorems, at H = hash ∘ enc and on well-formed inputs, IS a collision of the hash function
   (explicitly exhibited).  Generic in the byte type: the only fact used about bytes is that the 256 byte values are
   distinct ([byte_inj]); Base/EncInt.v proves it for the Uint63 bytes the executable instance uses. *)
From QV Require Import Base.Util Base.Facts Base.HashSig Base.Layout.

Lemma app_inj_len {A} n (a a' b b' : list A) :
  length a = n -> length a' = n -> a ++ b = a' ++ b' -> a = a' /\ b = b'.
Proof.
  intros <-. revert a'. induction a as [|x a IH]; intros [|x' a'] Hl Heq; simpl in *; try discriminate.
  - split; [reflexivity|exact Heq].
  - injection Heq as Hx Hr. injection Hl as Hl. destruct (IH a' Hl Hr) as [-> ->]. subst. split; reflexivity.
Qed.

Section Bytes.
  Variable B : Type.
  Variable byte : N -> B.
  Hypothesis byte_inj : forall x y, x < 256 -> y < 256 -> byte x = byte y -> x = y.
  Notation bytes := (list B).
  Notation be_bytes := (be_bytesG B byte).
  Notation pos10 := (pos10G B byte).
  Notation bytes_of_bits := (bytes_of_bitsG B byte).
  Notation hpos_bytes := (hpos_bytesG B byte).
  Notation enc := (encG B byte).

  Lemma be_bytes_length n x : length (be_bytes n x) = n.
  Proof. revert x. induction n as [|k IH]; intros x; simpl; [reflexivity|]. rewrite app_length, IH. simpl. lia. Qed.

  Lemma be_bytes_inj n : forall x y, x < 256 ^ N.of_nat n -> y < 256 ^ N.of_nat n -> be_bytes n x = be_bytes n y -> x = y.
  Proof.
    induction n as [|k IH]; intros x y Hx Hy Heq.
    - lia.
    - rewrite Nat2N.inj_succ, N.pow_succ_r' in Hx, Hy.
      apply app_inj_tail in Heq. destruct Heq as [Hq Hr].
      apply byte_inj in Hr; [| apply N.mod_lt; discriminate | apply N.mod_lt; discriminate].
      apply IH in Hq; [| apply N.div_lt_upper_bound; [discriminate|exact Hx] | apply N.div_lt_upper_bound; [discriminate|exact Hy]].
      rewrite (N.div_mod x 256), (N.div_mod y 256) by discriminate. rewrite Hq, Hr. reflexivity.
  Qed.

  Lemma pos10_length i h : length (pos10 i h) = 10%nat.
  Proof. unfold pos10G. rewrite app_length, !be_bytes_length. reflexivity. Qed.

  (* [l ++ pos10 i h] with a prefix of known length: every history format ends like this *)
  Lemma pos10_inj n l l' i h i' h' :
    length l = n -> length l' = n -> i < 2^64 -> i' < 2^64 -> N.of_nat h < 2^16 -> N.of_nat h' < 2^16 ->
    l ++ pos10 i h = l' ++ pos10 i' h' -> l = l' /\ i = i' /\ h = h'.
  Proof.
    unfold pos10G. intros Hl Hl' Hi Hi' Hh Hh' Heq.
    destruct (app_inj_len _ _ _ _ _ Hl Hl' Heq) as [-> Heq'].
    destruct (app_inj_len _ _ _ _ _ (be_bytes_length 8 _) (be_bytes_length 8 _) Heq') as [H1 H2].
    rewrite !N.mod_small in H1, H2 by assumption.
    apply be_bytes_inj in H1; [| exact Hi | exact Hi'].
    apply be_bytes_inj in H2; [| exact Hh | exact Hh'].
    repeat split; [exact H1 | exact (Nat2N.inj _ _ H2)].
  Qed.

  Lemma bits_val_inj : forall bs bs' a a', length bs = length bs' -> bits_val bs a = bits_val bs' a' -> a = a' /\ bs = bs'.
  Proof.
    induction bs as [|b r IH]; intros [|b' r'] a a' Hl Heq; cbn [bits_val length] in *; try discriminate.
    - split; [exact Heq|reflexivity].
    - injection Hl as Hl. destruct (IH r' _ _ Hl Heq) as [Ha ->].
      (* parity: 2a + b = 2a' + b' forces b = b' *)
      destruct b, b'; try (exfalso; lia); (split; [lia|reflexivity]).
  Qed.

  Lemma bits_val_bound : forall bs a, bits_val bs a < (a + 1) * pow2 (length bs).
  Proof.
    induction bs as [|b r IH]; intros a; cbn [bits_val length].
    - rewrite pow2_0. lia.
    - rewrite pow2_S, N.mul_assoc. apply (N.lt_le_trans _ _ _ (IH _)), N.mul_le_mono_r. destruct b; lia.
  Qed.

  (* lists of k * 8 bits are taken apart eight at a time (S k * 8 computes to 8 + k * 8) *)
  Lemma bytes_of_bits_inj : forall k fuel bs bs', length bs = (k * 8)%nat -> length bs' = (k * 8)%nat -> (k <= fuel)%nat ->
    bytes_of_bits fuel bs = bytes_of_bits fuel bs' -> bs = bs'.
  Proof.
    induction k as [|k IH]; intros fuel bs bs' Hl Hl' Hf Heq.
    - destruct bs, bs'; try discriminate. reflexivity.
    - destruct fuel as [|f]; [inversion Hf|]. apply le_S_n in Hf.
      destruct bs as [|b0 [|b1 [|b2 [|b3 [|b4 [|b5 [|b6 [|b7 r]]]]]]]]; try discriminate Hl.
      destruct bs' as [|c0 [|c1 [|c2 [|c3 [|c4 [|c5 [|c6 [|c7 r']]]]]]]]; try discriminate Hl'.
      injection Hl as Hl. injection Hl' as Hl'. cbn [bytes_of_bitsG firstn skipn] in Heq. injection Heq as Hb Hr.
      apply (byte_inj _ _ (bits_val_bound [b0;b1;b2;b3;b4;b5;b6;b7] 0) (bits_val_bound [c0;c1;c2;c3;c4;c5;c6;c7] 0)) in Hb.
      apply bits_val_inj in Hb; [|reflexivity]. destruct Hb as [_ Hb]. injection Hb as -> -> -> -> -> -> -> ->.
      rewrite (IH f r r' Hl Hl' Hf Hr). reflexivity.
  Qed.

  Lemma bytes_of_bits_length : forall k fuel bs, length bs = (k * 8)%nat -> (k <= fuel)%nat -> length (bytes_of_bits fuel bs) = k.
  Proof.
    induction k as [|k IH]; intros fuel bs Hl Hf.
    - destruct bs; [|discriminate]. destruct fuel; reflexivity.
    - destruct fuel as [|f]; [inversion Hf|]. apply le_S_n in Hf.
      destruct bs as [|b0 [|b1 [|b2 [|b3 [|b4 [|b5 [|b6 [|b7 r]]]]]]]]; try discriminate Hl.
      injection Hl as Hl. cbn [bytes_of_bitsG firstn skipn length]. f_equal. exact (IH f r Hl Hf).
  Qed.

  Section Formats.
  Variable kb : nat.     (* key length in bytes (32 in production) *)
  Variable vlen : nat.   (* byte length of a hyper value (32 in production: the version padded to the key length) *)

  Definition wfpos (p : hpos) : Prop := (length (fst p) + snd p = 8 * kb)%nat /\ N.of_nat (snd p) < 2^16.

  Lemma hpos_bytes_length p : wfpos p -> length (hpos_bytes p) = (2 + kb)%nat.
  Proof.
    destruct p as [bits h]. intros [Hl _]. cbn [fst snd] in Hl. unfold hpos_bytesG.
    rewrite app_length, be_bytes_length. f_equal.
    rewrite Nat.mul_comm in Hl.
    apply bytes_of_bits_length; rewrite app_length, repeat_length; [exact Hl | lia].
  Qed.

  Lemma hpos_bytes_inj p p' : wfpos p -> wfpos p' -> hpos_bytes p = hpos_bytes p' -> p = p'.
  Proof.
    destruct p as [bits h], p' as [bits' h']. intros [Hl Hh] [Hl' Hh'] Heq. cbn [fst snd] in Hl, Hh, Hl', Hh'.
    unfold hpos_bytesG in Heq.
    destruct (app_inj_len _ _ _ _ _ (be_bytes_length 2 _) (be_bytes_length 2 _) Heq) as [H1 H2].
    rewrite !N.mod_small in H1 by assumption.
    apply be_bytes_inj in H1; [| exact Hh | exact Hh']. apply Nat2N.inj in H1. subst h'.
    assert (L : length (bits ++ repeat false h) = (kb * 8)%nat) by (rewrite app_length, repeat_length, Nat.mul_comm; exact Hl).
    assert (L' : length (bits' ++ repeat false h) = (kb * 8)%nat) by (rewrite app_length, repeat_length, Nat.mul_comm; exact Hl').
    rewrite L, L' in H2. apply (bytes_of_bits_inj kb _ _ _ L L') in H2; [|clear; lia].
    apply app_inv_tail in H2. subst. reflexivity.
  Qed.

  Definition hwf (x : hin bytes bytes bytes) : Prop :=
    match x with
    | HBare i h => i < 2^64 /\ N.of_nat h < 2^16
    | HLeaf e i => length e = 32%nat /\ i < 2^64
    | HPart l i h => length l = 32%nat /\ i < 2^64 /\ (0 < h)%nat /\ N.of_nat h < 2^16
    | HFull l r i h => length l = 32%nat /\ length r = 32%nat /\ i < 2^64 /\ N.of_nat h < 2^16
    | YDef0 => True
    | YDef a b => length a = 32%nat /\ length b = 32%nat
    | YLeaf v p => length v = vlen /\ wfpos p
    | YNode a b p => length a = 32%nat /\ length b = 32%nat /\ wfpos p
    end.

  (* the lengths 10, 42, 42, 74 | 2, 64, vlen + 2 + kb, 66 + kb, written S (S m): [kind_of_len] matches on that form, and
     the side conditions below speak about m (a height or 0x00 0x00 is two bytes) *)
  Lemma enc_length x : hwf x ->
    length (enc x) = S (S match x with
                          | HBare _ _ => 8 | HLeaf _ _ => 40 | HPart _ _ _ => 40 | HFull _ _ _ _ => 72
                          | YDef0 => 0 | YDef _ _ => 62 | YLeaf _ _ => vlen + kb | YNode _ _ _ => 64 + kb
                          end).
  Proof.
    intros Hw. destruct x; cbn [encG]; rewrite ?app_length, ?pos10_length.
    - reflexivity.
    - destruct Hw as [-> _]. reflexivity.
    - destruct Hw as [-> _]. reflexivity.
    - destruct Hw as (-> & -> & _). reflexivity.
    - reflexivity.
    - destruct Hw as [-> ->]. reflexivity.
    - destruct Hw as [-> Hp]. rewrite (hpos_bytes_length _ Hp). exact (Nat.add_shuffle3 vlen 2 kb).
    - destruct Hw as (-> & -> & Hp). rewrite (hpos_bytes_length _ Hp). reflexivity.
  Qed.

  (* the side conditions say that the seven lengths are pairwise different (production: 10, 42, 74 | 2, 64, 66, 98):
     a leaf input of the hyper tree is as long as neither a default-hash input (2 or 64 bytes) nor an interior-node
     input nor a history input, and an interior-node input is not 74 bytes long; kb_pos keeps the leaf input from
     being 2 bytes long *)
  Hypothesis kb_pos : (0 < kb)%nat.
  Hypothesis yleaf_len_not_ydef : (vlen + kb <> 62)%nat.
  Hypothesis yleaf_len_not_ynode : (vlen <> 64)%nat.
  Hypothesis yleaf_len_not_hist : (vlen + kb <> 8 /\ vlen + kb <> 40 /\ vlen + kb <> 72)%nat.
  Hypothesis ynode_len_not_hfull : (kb <> 8)%nat.

  (* the format is determined by the length, except that a history leaf is as long as a partial node: the length is
     decoded by comparisons ([enc_kind], one case per format), so that two inputs of different kinds with the same bytes are
     refuted by [discriminate] on kinds, with no arithmetic per pair of formats *)
  Inductive kind := KBare | KPart | KFull | KDef0 | KDef | KYLeaf | KYNode.
  Definition kind_of (x : hin bytes bytes bytes) : kind :=
    match x with
    | HBare _ _ => KBare | HLeaf _ _ | HPart _ _ _ => KPart | HFull _ _ _ _ => KFull
    | YDef0 => KDef0 | YDef _ _ => KDef | YLeaf _ _ => KYLeaf | YNode _ _ _ => KYNode
    end.
  (* 64 + kb is tested first: YNode then goes by Nat.eqb_refl alone, and kb <> 8 is needed by HFull only (for
     72 =? 64 + kb); tested last, YNode would need both *)
  Definition kind_of_len (n : nat) : kind :=
    match n with
    | S (S m) => if m =? 64 + kb then KYNode else if m =? 8 then KBare else if m =? 40 then KPart else
                 if m =? 72 then KFull else if m =? 0 then KDef0 else if m =? 62 then KDef else KYLeaf
    | _ => KDef0
    end%nat.

  Lemma enc_kind x : hwf x -> kind_of_len (length (enc x)) = kind_of x.
  Proof.
    intros Hw. rewrite (enc_length x Hw). destruct x; try reflexivity; unfold kind_of_len.
    (* left are the three formats for which the test against 64 + kb does not compute *)
    - (* HFull: it is stuck at 8 =? kb.  lia reads the whole context: cleared, here and below, the calls cost less (the
         closed statement is the same either way) *)
      rewrite (proj2 (Nat.eqb_neq 72 (64 + kb))) by (clear - ynode_len_not_hfull; lia). reflexivity.
    - (* YLeaf: every test is stuck on vlen, and none of the six holds *)
      destruct yleaf_len_not_hist as (C1 & C2 & C3). pose proof yleaf_len_not_ydef as C4.
      assert (C5 : (vlen + kb <> 0)%nat) by (clear - kb_pos; lia).
      assert (C6 : (vlen + kb <> 64 + kb)%nat) by (clear - yleaf_len_not_ynode; lia).
      apply Nat.eqb_neq in C1, C2, C3, C4, C5, C6. rewrite C6, C1, C2, C3, C5, C4. reflexivity.
    - (* YNode: it is stuck at kb =? kb *) rewrite Nat.eqb_refl. reflexivity.
  Qed.

  Theorem enc_inj x y : hwf x -> hwf y -> enc x = enc y -> x = y.
  Proof.
    intros Hx Hy Heq. pose proof (enc_kind x Hx) as K. rewrite Heq, (enc_kind y Hy) in K.
    destruct x, y; try discriminate K; clear K; cbn [hwf encG] in Hx, Hy, Heq.
    (* left, in this order: HBare/HBare, HLeaf/HLeaf, HLeaf/HPart, HPart/HLeaf, HPart/HPart, HFull/HFull, and YDef0, YDef,
       YLeaf, YNode each against itself *)
    - destruct Hx as [Hi Hh], Hy as [Hi' Hh'].
      destruct (pos10_inj 0 [] [] _ _ _ _ eq_refl eq_refl Hi Hi' Hh Hh' Heq) as (_ & -> & ->). reflexivity.
    - destruct Hx as [Hl Hi], Hy as [Hl' Hi'].
      destruct (pos10_inj 32 _ _ _ O _ O Hl Hl' Hi Hi' eq_refl eq_refl Heq) as (-> & -> & _). reflexivity.
    - (* a leaf against a partial node: the latter has a height above 0 *)
      destruct Hx as [Hl Hi], Hy as (Hl' & Hi' & Hpos & Hh').
      destruct (pos10_inj 32 _ _ _ O _ _ Hl Hl' Hi Hi' eq_refl Hh' Heq) as (_ & _ & <-). inversion Hpos.
    - destruct Hx as (Hl & Hi & Hpos & Hh), Hy as [Hl' Hi'].
      destruct (pos10_inj 32 _ _ _ _ _ O Hl Hl' Hi Hi' Hh eq_refl Heq) as (_ & _ & ->). inversion Hpos.
    - destruct Hx as (Hl & Hi & _ & Hh), Hy as (Hl' & Hi' & _ & Hh').
      destruct (pos10_inj 32 _ _ _ _ _ _ Hl Hl' Hi Hi' Hh Hh' Heq) as (-> & -> & ->). reflexivity.
    - destruct Hx as (Hl & Hr & Hi & Hh), Hy as (Hl' & Hr' & Hi' & Hh').
      destruct (app_inj_len 32 _ _ _ _ Hl Hl' Heq) as [-> Heq'].
      destruct (pos10_inj 32 _ _ _ _ _ _ Hr Hr' Hi Hi' Hh Hh' Heq') as (-> & -> & ->). reflexivity.
    - reflexivity.
    - destruct Hx as [Ha Hb], Hy as [Ha' Hb']. destruct (app_inj_len 32 _ _ _ _ Ha Ha' Heq) as [-> ->]. reflexivity.
    - destruct Hx as [Hv Hp], Hy as [Hv' Hp']. destruct (app_inj_len vlen _ _ _ _ Hv Hv' Heq) as [-> Heq'].
      rewrite (hpos_bytes_inj _ _ Hp Hp' Heq'). reflexivity.
    - destruct Hx as (Ha & Hb & Hp), Hy as (Ha' & Hb' & Hp').
      destruct (app_inj_len 32 _ _ _ _ Ha Ha' Heq) as [-> Heq']. destruct (app_inj_len 32 _ _ _ _ Hb Hb' Heq') as [-> Heq''].
      rewrite (hpos_bytes_inj _ _ Hp Hp' Heq''). reflexivity.
  Qed.

  Theorem H_collision_is_hash_collision (X : Type) (hashf : bytes -> X) x y :
    hwf x -> hwf y -> x <> y -> hashf (enc x) = hashf (enc y) ->
    exists m m' : bytes, m <> m' /\ hashf m = hashf m'.
  Proof.
    intros Hx Hy Hne Heq. exists (enc x), (enc y). split; [|exact Heq].
    intros Henc. exact (Hne (enc_inj x y Hx Hy Henc)).
  Qed.
  End Formats.

  (* Production sizes: 256-bit keys (32 bytes) and values padded to the key length (balloon/hyper/insert.go,
     insert_bulk.go and verify.go: util.AddPaddingToBytes(value, len(index)), of which the last len(index) bytes are
     kept): lengths 10, 42, 42, 74 | 2, 64, 66, 98. *)
  Definition hwf_prod := hwf 32 32.

  Theorem enc_inj_production x y : hwf_prod x -> hwf_prod y -> enc x = enc y -> x = y.
  Proof. apply enc_inj; lia. Qed.

  Theorem H_inj_or_hash_collision (X : Type) (hashf : bytes -> X) x y :
    hwf_prod x -> hwf_prod y -> x <> y -> hashf (enc x) = hashf (enc y) ->
    exists m m' : bytes, m <> m' /\ hashf m = hashf m'.
  Proof. apply H_collision_is_hash_collision; lia. Qed.

  (* what the side condition guards against: WITHOUT the 32-byte length of digests the formats are ambiguous - a
     64-byte "left child" of a partial node is read as the two children of a full node.  The history verifier treats
     an audit-path entry of another length as missing (fix 10a81c4, History/HistChecked.v); the hyper verifier does
     not check the length of audit-path entries: trusted base of C02/C19 *)
  Lemma unchecked_length_is_ambiguous (l r : bytes) (i : N) (h : nat) :
    enc (HPart (l ++ r) i h) = enc (HFull l r i h).
  Proof. unfold encG. rewrite <- app_assoc. reflexivity. Qed.
End Bytes.

(* Non-vacuity: with bytes as numbers the premise holds and well-formed inputs exist. *)
Example byte_inj_N : forall x y : N, x < 256 -> y < 256 -> id x = id y -> x = y.
Proof. intros x y _ _ Heq. exact Heq. Qed.
Example wf_inputs_exist :
  hwf_prod N (YNode (repeat 1 32) (repeat 2 32) (repeat true 253, 3%nat)) /\
  hwf_prod N (YLeaf (repeat 0 32) (repeat true 200, 56%nat)) /\
  hwf_prod N (HLeaf (repeat 3 32) 7) /\ hwf_prod N (HPart (repeat 3 32) 6 1) /\
  encG N id (HLeaf (repeat 3 32) 7) <> encG N id (HPart (repeat 3 32) 6 1).
Proof.
  repeat split; try reflexivity.
  - exact (le_n 1).
  - (* byte 39 is the low byte of the index: 7 against 6 *)
    intros E. discriminate (f_equal (fun l => nth 39 l 0) E).
Qed.
