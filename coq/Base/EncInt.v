(* The premise of Base/Enc.v for the bytes the executable instance uses (Uint63): the 256 byte values are distinct.
   Its lemmas depend on the standard library's axioms about primitive 63-bit integers (Uint63.of_Z_spec and
   what it rests on); no property theorem depends on it - it shows that [ShaInst.enc], the function the
   correspondence runs execute, is the instance of [encG] the theorems of Enc.v speak about. *)
From Coq Require Import Uint63 ZArith.
From QV Require Import Base.Util Base.HashSig Base.Sha256 Base.ShaInst Base.Enc.

Lemma byte_of_N_inj x y : x < 256 -> y < 256 -> byte_of_N x = byte_of_N y -> x = y.
Proof.
  unfold byte_of_N. intros Hx Hy Heq.
  apply (f_equal Uint63.to_Z) in Heq. rewrite !Uint63.of_Z_spec in Heq.
  assert (Hw : (256 < wB)%Z) by (unfold wB; simpl; lia).
  rewrite !Z.mod_small in Heq by lia. lia.
Qed.

Lemma enc_is_instance x : enc x = encG int byte_of_N x.
Proof. reflexivity. Qed.

Theorem Hsha_inj_or_sha256_collision x y :
  hwf_prod int x -> hwf_prod int y -> x <> y -> Hsha x = Hsha y ->
  exists m m' : bytes, m <> m' /\ sha256 m = sha256 m'.
Proof. exact (H_inj_or_hash_collision int byte_of_N byte_of_N_inj bytes sha256 x y). Qed.
