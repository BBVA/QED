(* Facts that the standard library lacks and the proofs of several models share. *)
From QV Require Import Base.Util.

(* "minus one" in unsigned arithmetic modulo W, as fsm.go, backup.go and balloon.go compute version - 1 *)
Lemma mod_wrap_pred W x : 0 < x -> x <= W -> (x + W - 1) mod W = x - 1.
Proof.
  intros Hx Hle. replace (x + W - 1) with (x - 1 + 1 * W) by lia.
  rewrite N.mod_add by lia. apply N.mod_small. lia.
Qed.

Lemma pow2_pos h : 0 < pow2 h.
Proof. induction h as [|h IH]; cbn [pow2]; lia. Qed.

Lemma pow2_S h : pow2 (S h) = 2 * pow2 h.
Proof. reflexivity. Qed.

Lemma pow2_0 : pow2 0 = 1.
Proof. reflexivity. Qed.

Lemma pow2_pow h : pow2 h = 2 ^ N.of_nat h.
Proof.
  induction h as [|h IH]; [reflexivity|].
  rewrite pow2_S, IH, Nat2N.inj_succ, N.pow_succ_r'. reflexivity.
Qed.

Lemma pow2_le_iff k h : pow2 k <= pow2 h <-> (k <= h)%nat.
Proof. rewrite !pow2_pow, <- N.pow_le_mono_r_iff by lia. lia. Qed.

Lemma size_nat_spec p : (Npos p < pow2 (Pos.size_nat p)) /\ pow2 (Pos.size_nat p) <= 2 * Npos p.
Proof.
  induction p as [p IH|p IH|]; cbn [Pos.size_nat pow2]; lia.
Qed.

Lemma bitlen_gt v : v < pow2 (bitlen v).
Proof. destruct v as [|p]; [apply pow2_pos|apply (size_nat_spec p)]. Qed.

Lemma bitlen_le v : 0 < v -> pow2 (bitlen v) <= 2 * v.
Proof. destruct v as [|p]; [lia|]. intros _. apply (size_nat_spec p). Qed.

Lemma bitlen_0 v : bitlen v = O -> v = 0.
Proof. destruct v as [|p]; [reflexivity|]. destruct p; discriminate. Qed.

Lemma bitlen_pos v : v <> 0 -> (0 < bitlen v)%nat.
Proof. intros Hv. destruct (bitlen v) eqn:Hb; [destruct (Hv (bitlen_0 v Hb))|apply Nat.lt_0_succ]. Qed.

Lemma bitlen_le_iff v h : (bitlen v <= h)%nat <-> v < pow2 h.
Proof.
  split; intros Hv.
  - apply (N.lt_le_trans _ _ _ (bitlen_gt v)), pow2_le_iff, Hv.
  - destruct v as [|p]; [apply Nat.le_0_l|].
    apply Nat.lt_succ_r, Nat.lt_nge. intros Hl. apply pow2_le_iff in Hl. rewrite pow2_S in Hl.
    pose proof (bitlen_le (Npos p) eq_refl). lia.
Qed.

Lemma bitlen_mono s e : s <= e -> (bitlen s <= bitlen e)%nat.
Proof. intros Hse. apply bitlen_le_iff, (N.le_lt_trans _ _ _ Hse), bitlen_gt. Qed.

(* from here on cbn does not unfold pow2; pow2_0 and pow2_S are the equations to rewrite with *)
Arguments pow2 : simpl never.

Lemma filter_all {A} (f : A -> bool) (l : list A) : (forall x, In x l -> f x = true) -> filter f l = l.
Proof.
  induction l as [|x l IH]; intros Hall; [reflexivity|]. cbn [filter]. rewrite (Hall x (or_introl eq_refl)).
  f_equal. apply IH. intros y Hy. apply Hall. right. exact Hy.
Qed.

Lemma filter_none {A} (f : A -> bool) (l : list A) : (forall x, In x l -> f x = false) -> filter f l = [].
Proof.
  induction l as [|x l IH]; intros Hall; [reflexivity|]. cbn [filter]. rewrite (Hall x (or_introl eq_refl)).
  apply IH. intros y Hy. apply Hall. right. exact Hy.
Qed.

Lemma filter_filter {A} (f g : A -> bool) (l : list A) : filter f (filter g l) = filter (fun x => g x && f x) l.
Proof. induction l as [|x l IH]; [reflexivity|]. cbn [filter]. destruct (g x); cbn [filter andb]; [destruct (f x)|]; rewrite IH; reflexivity. Qed.

Lemma filter_of_map {A B} (f : A -> B) (g : B -> bool) (l : list A) : filter g (map f l) = map f (filter (fun x => g (f x)) l).
Proof. induction l as [|x l IH]; [reflexivity|]. cbn [map filter]. destruct (g (f x)); cbn [map]; rewrite IH; reflexivity. Qed.

Lemma filter_rev {A} (f : A -> bool) (l : list A) : filter f (rev l) = rev (filter f l).
Proof.
  induction l as [|x r IH]; [reflexivity|]. cbn [rev filter]. rewrite filter_app, IH. cbn [filter].
  destruct (f x); [reflexivity|apply app_nil_r].
Qed.

Lemma filter_length_mono {A} (f g : A -> bool) (l : list A) :
  (forall x, g x = true -> f x = true) -> (length (filter g l) <= length (filter f l))%nat.
Proof.
  intros Hgf. induction l as [|x l IH]; cbn [filter]; [lia|].
  destruct (g x) eqn:Hg; [rewrite (Hgf x Hg)|destruct (f x)]; cbn [length]; lia.
Qed.

Lemma filter_length_lt {A} (f g : A -> bool) (l : list A) x :
  (forall y, g y = true -> f y = true) -> In x l -> f x = true -> g x = false ->
  (length (filter g l) < length (filter f l))%nat.
Proof.
  intros Hgf Hin Hf Hg. destruct (in_split x l Hin) as (l1 & l2 & ->).
  rewrite !filter_app, !app_length. cbn [filter]. rewrite Hf, Hg. cbn [length].
  pose proof (filter_length_mono f g l1 Hgf). pose proof (filter_length_mono f g l2 Hgf). lia.
Qed.

Lemma NoDup_app {A} (l1 l2 : list A) :
  NoDup (l1 ++ l2) <-> NoDup l1 /\ NoDup l2 /\ forall x, In x l1 -> ~ In x l2.
Proof.
  induction l1 as [|a l1 IH]; cbn [app].
  - split.
    + intros H. repeat split; [constructor|exact H|intros ? []].
    + intros (_ & H & _). exact H.
  - rewrite !NoDup_cons_iff, IH, in_app_iff. cbn [In]. split.
    + intros (Hn & H1 & H2 & Hd). repeat split; auto. intros x [<-|Hx]; auto.
    + intros ((Hn & H1) & H2 & Hd). repeat split; auto. intros [Hi|Hi]; [auto|exact (Hd a (or_introl eq_refl) Hi)].
Qed.

Lemma NoDup_snoc {A} (l : list A) a : NoDup l -> ~ In a l -> NoDup (l ++ [a]).
Proof.
  intros Hl Ha. apply (NoDup_Add (Add_app a l [])). rewrite app_nil_r. exact (conj Hl Ha).
Qed.

Lemma existsb_eqb_In {A} (eqb : A -> A -> bool) (eqb_eq : forall a b, eqb a b = true <-> a = b) k l :
  existsb (eqb k) l = true <-> In k l.
Proof.
  rewrite existsb_exists. split; [intros (x & Hx & He); apply eqb_eq in He; congruence|].
  intros Hk. exists k. split; [exact Hk|apply eqb_eq; reflexivity].
Qed.

Lemma Forall_repeat {A} (P : A -> Prop) x n : P x -> Forall P (repeat x n).
Proof. intros Hx. apply Forall_forall. intros y Hy. rewrite (repeat_spec _ _ _ Hy). exact Hx. Qed.

Lemma seq_add a n : seq a n = map (fun k => a + k)%nat (seq 0 n).
Proof.
  induction a as [|a IH]; [symmetry; apply map_id|]. rewrite <- seq_shift, IH, map_map. reflexivity.
Qed.

Lemma map_nth_seq {A} (d : A) (l : list A) : map (fun k => nth k l d) (seq 0 (length l)) = l.
Proof.
  induction l as [|x l IH]; cbn [length seq map nth]; [reflexivity|]. f_equal.
  rewrite <- seq_shift, map_map. exact IH.
Qed.

Lemma combine_map {A B C} (f : A -> B) (g : A -> C) (l : list A) :
  combine (map f l) (map g l) = map (fun x => (f x, g x)) l.
Proof. induction l as [|x l IH]; cbn [map combine]; [reflexivity|]. f_equal. exact IH. Qed.

Lemma combine_nth_seq {A B} (d : A) (g : nat -> B) (l : list A) :
  combine l (map g (seq 0 (length l))) = map (fun k => (nth k l d, g k)) (seq 0 (length l)).
Proof. rewrite <- combine_map, map_nth_seq. reflexivity. Qed.

Lemma skipn_nth_cons {A} (d : A) n : forall (l : list A), (n < length l)%nat -> skipn n l = nth n l d :: skipn (S n) l.
Proof. induction n as [|n IH]; intros [|x l] Hl; cbn in *; try lia; [reflexivity|]. apply IH. lia. Qed.

Lemma tl_skipn {A} n : forall (l : list A), tl (skipn n l) = skipn (S n) l.
Proof. induction n as [|n IH]; intros [|x l]; cbn; try reflexivity. apply IH. Qed.

Lemma hd_skipn {A} (d : A) n : forall l, hd d (skipn n l) = nth n l d.
Proof. induction n as [|n IH]; intros [|x l]; cbn; try reflexivity. apply IH. Qed.

Lemma app_snoc {A} (l : list A) x m : l ++ x :: m = (l ++ [x]) ++ m.
Proof. rewrite <- app_assoc. reflexivity. Qed.

Lemma fold_left_inv {A B} (f : A -> B -> A) (P : A -> Prop) (Q : B -> Prop) :
  (forall s o, Q o -> P s -> P (f s o)) -> forall ops s, Forall Q ops -> P s -> P (fold_left f ops s).
Proof.
  intros Hstep. induction ops as [|o ops IH]; intros s Hq Hp; [exact Hp|]. inversion Hq as [|? ? Ho Hq'].
  cbn. apply IH; [exact Hq'|]. apply Hstep; assumption.
Qed.

Lemma fold_left_inv_any {A B} (f : A -> B -> A) (P : A -> Prop) :
  (forall s o, P s -> P (f s o)) -> forall ops s, P s -> P (fold_left f ops s).
Proof. intros Hstep ops s. apply (fold_left_inv f P (fun _ => True)); [intros s' o _; apply Hstep|apply Forall_forall; trivial]. Qed.

Section Assoc.
  Context {K B : Type} (eqb : K -> K -> bool) (eqb_eq : forall a b, eqb a b = true <-> a = b).
  Implicit Types (l : list (K * B)).

  Lemma assoc_Some_In k l v : assoc eqb k l = Some v -> In (k, v) l.
  Proof.
    induction l as [|[k' v'] l IH]; cbn [assoc]; [discriminate|]. destruct (eqb k k') eqn:He.
    - apply eqb_eq in He. intros [= ->]. left. congruence.
    - intros Hs. right. exact (IH Hs).
  Qed.

  Lemma assoc_None k l : assoc eqb k l = None <-> ~ In k (map fst l).
  Proof.
    induction l as [|[k' v'] l IH]; cbn [assoc map fst In]; [tauto|]. destruct (eqb k k') eqn:He.
    - apply eqb_eq in He. split; [discriminate|]. intros Hn. destruct Hn. left. congruence.
    - rewrite IH. split; [|tauto]. intros Hn [Hk|Hi].
      + subst k'. rewrite (proj2 (eqb_eq k k) eq_refl) in He. discriminate.
      + exact (Hn Hi).
  Qed.

  Lemma assoc_dom k l : In k (map fst l) <-> exists v, assoc eqb k l = Some v.
  Proof.
    destruct (assoc eqb k l) as [v|] eqn:Ha.
    - split; [eauto|]. intros _. exact (in_map fst _ _ (assoc_Some_In _ _ _ Ha)).
    - apply assoc_None in Ha. split; [contradiction|]. intros [v Hv]. discriminate.
  Qed.

  Lemma assoc_NoDup_In k l v : NoDup (map fst l) -> In (k, v) l -> assoc eqb k l = Some v.
  Proof.
    induction l as [|[k' v'] l IH]; cbn [assoc map fst]; intros Hnd Hin; [destruct Hin|].
    apply NoDup_cons_iff in Hnd. destruct Hnd as [Hk Hnd]. destruct Hin as [[= -> ->]|Hin].
    - rewrite (proj2 (eqb_eq k k) eq_refl). reflexivity.
    - destruct (eqb k k') eqn:He; [|exact (IH Hnd Hin)]. apply eqb_eq in He. subst k'.
      destruct Hk. exact (in_map fst _ _ Hin).
  Qed.

  Lemma assoc_app k l1 l2 :
    assoc eqb k (l1 ++ l2) = match assoc eqb k l1 with Some d => Some d | None => assoc eqb k l2 end.
  Proof. induction l1 as [|[k' d] l1 IH]; cbn [app assoc]; [reflexivity|]. destruct (eqb k k'); [reflexivity|exact IH]. Qed.

  Lemma assoc_filter_key (f : K -> bool) l k :
    assoc eqb k (filter (fun kv => f (fst kv)) l) = if f k then assoc eqb k l else None.
  Proof.
    induction l as [|[k' v] l IH]; cbn [filter assoc fst]; [destruct (f k); reflexivity|].
    destruct (eqb k k') eqn:He.
    - pose proof (proj1 (eqb_eq _ _) He) as <-. destruct (f k); cbn [assoc]; rewrite ?He, ?IH; reflexivity.
    - destruct (f k'); cbn [assoc]; rewrite ?He; exact IH.
  Qed.

  (* filtering on values needs distinct keys: a dropped entry must not uncover a later one *)
  Lemma assoc_filter_NoDup (f : K * B -> bool) l k : NoDup (map fst l) ->
    assoc eqb k (filter f l) = match assoc eqb k l with Some v => if f (k, v) then Some v else None | None => None end.
  Proof.
    induction l as [|[k' v] l IH]; cbn [filter assoc map fst]; intros Hnd; [reflexivity|].
    apply NoDup_cons_iff in Hnd. destruct Hnd as [Hk Hnd]. destruct (eqb k k') eqn:He.
    - apply eqb_eq in He. subst k'. destruct (f (k, v)); cbn [assoc]; [rewrite (proj2 (eqb_eq k k) eq_refl); reflexivity|].
      apply assoc_None. intros Hin. apply Hk. exact (incl_map fst (incl_filter f l) k Hin).
    - destruct (f (k', v)); cbn [assoc]; rewrite ?He; exact (IH Hnd).
  Qed.
End Assoc.
