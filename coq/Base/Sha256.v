(* SHA-256 over Coq's primitive 63-bit integers, for in-kernel (vm_compute) byte-exact
   execution of the models; its agreement with Go's crypto/sha256 is checked on every correspondence run.
   The property theorems are stated for an abstract hash; what depends on this file is the byte-level part:
   Base/Sha256Len.v (every digest has 32 bytes), Base/EncInt.v, History/HistBytes.v and, in Properties,
   C03_pinned_refuted.v. *)
From Coq Require Import List Uint63 ZArith.
Import ListNotations.
Local Open Scope uint63_scope.

Definition mask32 : int := 0xffffffff.
Definition add32 (a b : int) : int := (a + b) land mask32.
Definition rotr (x : int) (n : int) : int := ((x >> n) lor (x << (32 - n))) land mask32.
Definition not32 (x : int) : int := x lxor mask32.

Definition K : list int :=
 [0x428a2f98;0x71374491;0xb5c0fbcf;0xe9b5dba5;0x3956c25b;0x59f111f1;0x923f82a4;0xab1c5ed5;
  0xd807aa98;0x12835b01;0x243185be;0x550c7dc3;0x72be5d74;0x80deb1fe;0x9bdc06a7;0xc19bf174;
  0xe49b69c1;0xefbe4786;0x0fc19dc6;0x240ca1cc;0x2de92c6f;0x4a7484aa;0x5cb0a9dc;0x76f988da;
  0x983e5152;0xa831c66d;0xb00327c8;0xbf597fc7;0xc6e00bf3;0xd5a79147;0x06ca6351;0x14292967;
  0x27b70a85;0x2e1b2138;0x4d2c6dfc;0x53380d13;0x650a7354;0x766a0abb;0x81c2c92e;0x92722c85;
  0xa2bfe8a1;0xa81a664b;0xc24b8b70;0xc76c51a3;0xd192e819;0xd6990624;0xf40e3585;0x106aa070;
  0x19a4c116;0x1e376c08;0x2748774c;0x34b0bcb5;0x391c0cb3;0x4ed8aa4a;0x5b9cca4f;0x682e6ff3;
  0x748f82ee;0x78a5636f;0x84c87814;0x8cc70208;0x90befffa;0xa4506ceb;0xbef9a3f7;0xc67178f2].

Definition H0 : list int :=
 [0x6a09e667;0xbb67ae85;0x3c6ef372;0xa54ff53a;0x510e527f;0x9b05688c;0x1f83d9ab;0x5be0cd19].

(* message schedule: w holds the last 16 words, most recent first *)
Definition next_w (w : list int) : int :=
  match w with
  | w1 :: w2 :: _ :: _ :: _ :: _ :: w7 :: _ :: _ :: _ :: _ :: _ :: _ :: _ :: w15 :: w16 :: _ =>
      let s0 := (rotr w15 7) lxor (rotr w15 18) lxor (w15 >> 3) in
      let s1 := (rotr w2 17) lxor (rotr w2 19) lxor (w2 >> 10) in
      add32 (add32 w16 s0) (add32 w7 s1)
  | _ => 0
  end.

Definition round (st : list int) (k w : int) : list int :=
  match st with
  | [a;b;c;d;e;f;g;h] =>
      let S1 := (rotr e 6) lxor (rotr e 11) lxor (rotr e 25) in
      let ch := (e land f) lxor ((not32 e) land g) in
      let t1 := add32 (add32 (add32 h S1) (add32 ch k)) w in
      let S0 := (rotr a 2) lxor (rotr a 13) lxor (rotr a 22) in
      let maj := (a land b) lxor (a land c) lxor (b land c) in
      let t2 := add32 S0 maj in
      [add32 t1 t2; a; b; c; add32 d t1; e; f; g]
  | _ => st
  end.

(* rounds 0..15 consume the block words; rounds 16..63 extend the schedule *)
Fixpoint rounds16 (st : list int) (ks ws : list int) (hist : list int) : list int * list int * list int :=
  match ks, ws with
  | k :: ks', w :: ws' => rounds16 (round st k w) ks' ws' (w :: hist)
  | _, _ => (st, ks, hist)
  end.

Fixpoint rounds48 (st : list int) (ks : list int) (hist : list int) : list int :=
  match ks with
  | k :: ks' => let w := next_w hist in rounds48 (round st k w) ks' (w :: firstn 15 hist)
  | [] => st
  end.

Definition compress (hs : list int) (block : list int) : list int :=
  let '(st, ks, hist) := rounds16 hs K block [] in
  let st' := rounds48 st ks hist in
  map (fun p => add32 (fst p) (snd p)) (combine hs st').

Fixpoint words_of_bytes (bs : list int) : list int :=
  match bs with
  | a :: b :: c :: d :: r => ((a << 24) lor (b << 16) lor (c << 8) lor d) :: words_of_bytes r
  | _ => []
  end.

Fixpoint chunks16 (fuel : nat) (ws : list int) : list (list int) :=
  match fuel with
  | O => []
  | S f => match ws with [] => [] | _ => firstn 16 ws :: chunks16 f (skipn 16 ws) end
  end.

Definition bytes_of_word (w : int) : list int :=
  [(w >> 24) land 0xff; (w >> 16) land 0xff; (w >> 8) land 0xff; w land 0xff].

Definition pad (bs : list int) : list int :=
  let n := length bs in
  let zeros := Nat.modulo (64 - Nat.modulo (n + 9) 64) 64 in
  let bitlen := Uint63.of_Z (Z.of_nat n * 8) in
  bs ++ [0x80] ++ repeat 0 zeros ++ [0;0;0; (bitlen >> 32) land 0xff] ++ bytes_of_word (bitlen land mask32).

Definition sha256 (bs : list int) : list int :=
  let ws := words_of_bytes (pad bs) in
  let hs := fold_left compress (chunks16 (S (length ws)) ws) H0 in
  flat_map bytes_of_word hs.

Definition hexdigit (x : int) : int := if x <? 10 then x + 48 else x + 87.
(* sanity: sha256 "" and sha256 "abc" *)
Example sha_empty : map Uint63.to_Z (firstn 4 (sha256 [])) = [0xe3; 0xb0; 0xc4; 0x42]%Z.
Proof. vm_compute. reflexivity. Qed.
Example sha_abc : map Uint63.to_Z (firstn 4 (sha256 [97;98;99])) = [0xba; 0x78; 0x16; 0xbf]%Z.
Proof. vm_compute. reflexivity. Qed.
