(* Every SHA-256 digest the executable instance computes has 32 bytes, for every input - proved structurally (the
   compression function keeps the 8-word state), not by evaluation. *)
From Coq Require Import Uint63 List Lia.
From QV Require Import Base.Sha256.
Import ListNotations.

Lemma round_length st k w : length (round st k w) = length st.
Proof.
  destruct st as [|a [|b [|c [|d [|e [|f [|g [|h [|x r]]]]]]]]]; reflexivity.
Qed.

Lemma rounds16_length : forall ks ws st hist st' ks' hist',
  rounds16 st ks ws hist = (st', ks', hist') -> length st' = length st.
Proof.
  induction ks as [|k ks IH]; intros ws st hist st' ks' hist' Heq; cbn [rounds16] in Heq.
  - injection Heq as <- _ _. reflexivity.
  - destruct ws as [|w ws].
    + injection Heq as <- _ _. reflexivity.
    + apply IH in Heq. rewrite Heq. apply round_length.
Qed.

Lemma rounds48_length : forall ks st hist, length (rounds48 st ks hist) = length st.
Proof.
  induction ks as [|k ks IH]; intros st hist; cbn [rounds48]; [reflexivity|].
  rewrite IH. apply round_length.
Qed.

Lemma compress_length hs block : length (compress hs block) = length hs.
Proof.
  unfold compress.
  destruct (rounds16 hs K block []) as [[st ks] hist] eqn:H16.
  apply rounds16_length in H16.
  rewrite map_length, combine_length, rounds48_length, H16. lia.
Qed.

Lemma fold_compress_length : forall blocks hs, length (fold_left compress blocks hs) = length hs.
Proof.
  induction blocks as [|b r IH]; intros hs; cbn [fold_left]; [reflexivity|].
  rewrite IH. apply compress_length.
Qed.

Lemma flat_map_words_length : forall ws, length (flat_map bytes_of_word ws) = (4 * length ws)%nat.
Proof.
  induction ws as [|w r IH]; [reflexivity|].
  cbn [flat_map]. rewrite app_length, IH. cbn [bytes_of_word length]. lia.
Qed.

Theorem sha256_length : forall bs, length (sha256 bs) = 32%nat.
Proof.
  intros bs. unfold sha256. rewrite flat_map_words_length, fold_compress_length. reflexivity.
Qed.
