(* Decidable equality on the free term algebra of Base/HashSig.v, for the non-vacuity examples; its tests on bit lists
   and positions (bits_eqb, hp_eqb) are the fixpoints Hyper/HyperModel.v calls key_eqb and hpos_eqb, and Hyper/HyperProofs.v
   takes their correctness from here. *)
From QV Require Import Base.Util Base.HashSig.

Section TermEq.
  Variables E V : Type.
  Variable E_eqb : E -> E -> bool.
  Variable V_eqb : V -> V -> bool.
  Hypothesis E_eqb_eq : forall a b, E_eqb a b = true <-> a = b.
  Hypothesis V_eqb_eq : forall a b, V_eqb a b = true <-> a = b.

  Fixpoint bits_eqb (a b : list bool) : bool :=
    match a, b with
    | [], [] => true
    | x :: a', y :: b' => Bool.eqb x y && bits_eqb a' b'
    | _, _ => false
    end.
  Lemma bits_eqb_eq a b : bits_eqb a b = true <-> a = b.
  Proof.
    revert b. induction a as [|x a IH]; intros [|y b]; cbn; try (split; discriminate); [split; reflexivity|].
    rewrite andb_true_iff, Bool.eqb_true_iff, IH. split.
    - intros [-> ->]. reflexivity.
    - intros [= -> ->]. split; reflexivity.
  Qed.
  Definition hp_eqb (p q : hpos) : bool := bits_eqb (fst p) (fst q) && Nat.eqb (snd p) (snd q).
  Lemma hp_eqb_eq p q : hp_eqb p q = true <-> p = q.
  Proof.
    destruct p as [a h], q as [b k]. unfold hp_eqb. cbn [fst snd].
    rewrite andb_true_iff, bits_eqb_eq, Nat.eqb_eq. split; [intros [-> ->]; reflexivity|intros Heq; inversion Heq; auto].
  Qed.

  Fixpoint term_eqb (a b : term E V) : bool :=
    match a, b with
    | T x, T y =>
        match x, y with
        | HBare i h, HBare j k => (i =? j) && Nat.eqb h k
        | HLeaf e i, HLeaf f j => E_eqb e f && (i =? j)
        | HPart l i h, HPart m j k => term_eqb l m && (i =? j) && Nat.eqb h k
        | HFull l r i h, HFull m s j k => term_eqb l m && term_eqb r s && (i =? j) && Nat.eqb h k
        | YDef0, YDef0 => true
        | YDef a1 b1, YDef a2 b2 => term_eqb a1 a2 && term_eqb b1 b2
        | YLeaf v p, YLeaf w q => V_eqb v w && hp_eqb p q
        | YNode a1 b1 p, YNode a2 b2 q => term_eqb a1 a2 && term_eqb b1 b2 && hp_eqb p q
        | _, _ => false
        end
    end.

  Lemma term_eqb_refl : forall a, term_eqb a a = true.
  Proof.
    fix IH 1. intros [x].
    assert (He : forall e, E_eqb e e = true) by (intros e; apply E_eqb_eq; reflexivity).
    assert (Hv : forall v, V_eqb v v = true) by (intros v; apply V_eqb_eq; reflexivity).
    assert (Hp : forall p, hp_eqb p p = true) by (intros p; apply hp_eqb_eq; reflexivity).
    destruct x; cbn [term_eqb];
      rewrite ?IH, ?He, ?Hv, ?Hp, ?N.eqb_refl, ?Nat.eqb_refl; reflexivity.
  Qed.

  Lemma term_eqb_true : forall a b, term_eqb a b = true -> a = b.
  Proof.
    fix IH 1. intros [x] [y]. destruct x, y; cbn [term_eqb]; intros Heq; try discriminate Heq;
      rewrite ?andb_true_iff, ?N.eqb_eq, ?Nat.eqb_eq, ?E_eqb_eq, ?V_eqb_eq, ?hp_eqb_eq in Heq;
      decompose [and] Heq; subst; repeat f_equal; apply IH; assumption.
  Qed.

  Lemma term_eqb_eq a b : term_eqb a b = true <-> a = b.
  Proof. split; [apply term_eqb_true|intros ->; apply term_eqb_refl]. Qed.
End TermEq.
