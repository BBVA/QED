(* C20: the endpoint selection of client/topology.go is safe and live for every topology state and read preference, and
   the request loops of client/client.go terminate because every failed round marks a live endpoint dead. *)
From Coq Require Import ZArith.
From QV Require Import Base.Util Base.Facts Client.Topology.
Open Scope Z_scope.

Definition nz (t : topo) : Z := Z.of_nat (length (t_eps t)).
Definition elig (t : topo) (only_sec : bool) (i : nat) : bool :=
  (if only_sec then e_secondary (obj t i) else true) && negb (e_dead (obj t i)).
Definition pos_id (t : topo) (c : Z) : nat := nth (Z.to_nat c) (t_eps t) O.

Definition WFc (t : topo) : Prop := -1 <= t_cindex t /\ (t_cindex t < nz t \/ nz t = 0).

Definition next (n c : Z) : Z := if n <=? c + 1 then 0 else c + 1.
Lemma next_cases n c : next n c = c + 1 /\ c + 1 < n \/ next n c = 0 /\ n <= c + 1.
Proof. unfold next. destruct (Z.leb_spec n (c + 1)); lia. Qed.

Lemma next_range n c : 0 < n -> -1 <= c < n -> 0 <= next n c < n.
Proof. destruct (next_cases n c) as [[-> ?]|[-> ?]]; lia. Qed.

Lemma scan_S t os f c :
  scan t os (S f) c =
    let c2 := next (nz t) c in
    if elig t os (pos_id t c2) then (Some (pos_id t c2), c2) else scan t os f c2.
Proof. reflexivity. Qed.

(* within fuel steps the scan reaches the positions after the cursor up to c + fuel and, once wrapped, those up to c + fuel - n:
   on None all of them are ineligible; on Some the lemma says where the scan stopped, at an eligible position, and not that
   the positions it skipped were ineligible *)
Lemma scan_spec t os fuel : forall c, 0 < nz t -> -1 <= c < nz t ->
  let '(r, c') := scan t os fuel c in
  -1 <= c' < nz t /\
  match r with
  | Some i => 0 <= c' /\ i = pos_id t c' /\ elig t os i = true
  | None => forall j, 0 <= j < nz t -> c < j <= c + Z.of_nat fuel \/ j + nz t <= c + Z.of_nat fuel -> elig t os (pos_id t j) = false
  end.
Proof.
  induction fuel as [|f IH]; intros c Hpos Hc.
  - cbn [scan]. split; [exact Hc|]. intros j Hj Hd. lia.
  - rewrite scan_S. cbv zeta. pose proof (next_range _ c Hpos Hc) as Hn.
    destruct (elig t os (pos_id t (next (nz t) c))) eqn:He.
    { split; [lia|]. split; [lia|]. split; [reflexivity|exact He]. }
    specialize (IH (next (nz t) c) Hpos ltac:(lia)). destruct (scan t os f (next (nz t) c)) as [[i|] c']; [exact IH|].
    split; [apply IH|]. intros j Hj Hd. destruct (Z.eq_dec j (next (nz t) c)) as [->|Hne]; [exact He|].
    apply IH; [exact Hj|]. destruct (next_cases (nz t) c) as [[? ?]|[? ?]]; lia.
Qed.

(* what a read preference allows, in terms of the latest Update: the primary object, the listed endpoints
   whose type is secondary, or any listed endpoint *)
Definition permitted (t : topo) (p : pref) (i : nat) : Prop :=
  match p with
  | PPrimary => t_primary t = Some i
  | PPrimaryPreferred | PSecondaryPreferred =>
      t_primary t = Some i \/ (In i (t_eps t) /\ e_secondary (obj t i) = true)
  | PSecondary => In i (t_eps t) /\ e_secondary (obj t i) = true
  | PAny => In i (t_eps t)
  end.

Definition kind (t : topo) (os : bool) (i : nat) : Prop := if os then e_secondary (obj t i) = true else True.

Lemma elig_iff t os i : elig t os i = true <-> kind t os i /\ e_dead (obj t i) = false.
Proof. unfold elig, kind. rewrite andb_true_iff, negb_true_iff. destruct os; intuition. Qed.

Lemma scan_eps_spec t os : WFc t ->
  let '(r, c) := scan_eps t os in
  WFc (with_cindex t c) /\
  match r with
  | Some i => (In i (t_eps t) /\ kind t os i) /\ e_dead (obj t i) = false
  | None => forall i, In i (t_eps t) /\ kind t os i -> e_dead (obj t i) = true
  end.
Proof.
  intros Hwf. unfold scan_eps. destruct (t_eps t) as [|x l] eqn:He; [split; [exact Hwf|intros i [[] _]]|]. rewrite <- He.
  assert (Hpos : 0 < nz t) by (unfold nz; rewrite He; cbn; lia).
  pose proof (scan_spec t os (S (length (t_eps t))) (t_cindex t) Hpos ltac:(unfold WFc in Hwf; lia)) as Hs.
  destruct (scan _ _ _ _) as [[i|] c]; destruct Hs as [Hc Hs]; (split; [unfold WFc, nz in *; cbn [with_cindex t_eps t_cindex]; lia|]).
  - destruct Hs as (Hc0 & -> & Hel). apply and_assoc. split; [apply nth_In; unfold nz in *; lia|].
    apply elig_iff. exact Hel.
  - intros i [Hin Hk]. destruct (In_nth _ _ O Hin) as (k & Hlt & <-).
    specialize (Hs (Z.of_nat k)). unfold pos_id in Hs. rewrite Nat2Z.id in Hs.
    assert (He2 : elig t os (nth k (t_eps t) O) = false).
    { (* S (length (t_eps t)) steps reach every position j: directly if t_cindex t < j, after the wrap if j <= t_cindex t + 1 *)
      apply Hs; unfold WFc, nz in *; lia. }
    destruct (e_dead _) eqn:Hd; [reflexivity|]. rewrite (proj2 (elig_iff _ _ _) (conj Hk Hd)) in He2. discriminate.
Qed.

Lemma live_primary_spec t :
  match live_primary t with
  | Some x => t_primary t = Some x /\ e_dead (obj t x) = false
  | None => forall x, t_primary t = Some x -> e_dead (obj t x) = true
  end.
Proof.
  unfold live_primary. destruct (t_primary t) as [p|]; [|discriminate].
  destruct (e_dead (obj t p)) eqn:Hd; [intros x [= <-]; exact Hd|split; [reflexivity|exact Hd]].
Qed.

Lemma set_dead_eps t i d : t_eps (set_dead t i d) = t_eps t. Proof. reflexivity. Qed.
Lemma set_dead_cindex t i d : t_cindex (set_dead t i d) = t_cindex t. Proof. reflexivity. Qed.

Lemma revive_all_frame t : t_eps (revive_all t) = t_eps t /\ t_cindex (revive_all t) = t_cindex t.
Proof.
  unfold revive_all. destruct (t_revive t); [|split; reflexivity].
  apply (fold_left_inv_any _ (fun x => t_eps x = t_eps t /\ t_cindex x = t_cindex t)); [|split; reflexivity].
  intros s i H. rewrite set_dead_eps, set_dead_cindex. exact H.
Qed.

Lemma wfc_same t t' : t_eps t' = t_eps t -> t_cindex t' = t_cindex t -> WFc t -> WFc t'.
Proof. intros He Hc. unfold WFc, nz. rewrite He, Hc. tauto. Qed.

Lemma revive_all_wfc t : WFc t -> WFc (revive_all t) /\ t_eps (revive_all t) = t_eps t.
Proof. intros Hwf. destruct (revive_all_frame t) as [He Hc]. split; [exact (wfc_same t _ He Hc Hwf)|exact He]. Qed.

Lemma wfc_new rv : WFc (new_topology rv).
Proof. unfold WFc, nz. cbn. lia. Qed.

Lemma wfc_update t p s : WFc (update t p s).
Proof.
  unfold WFc, nz, update.
  destruct (if (p =? 0)%N then _ else _) as [[o1 pr] e0].
  destruct (fold_left _ s (o1, e0)) as [o2 eps]. cbn. lia.
Qed.

(* how every branch of next_read ends: the choice r, made on a topology T that differs from t in the cursor at most, is
   returned, or there is none and revive_all runs *)
Lemma read_exit t p T r : WFc T -> (exists c, T = with_cindex t c) ->
  match r with
  | Some i => permitted t p i /\ e_dead (obj t i) = false
  | None => forall i, permitted t p i -> e_dead (obj t i) = true
  end ->
  let '(r', t') := match r with Some i => (Some i, T) | None => (None, revive_all T) end in
  WFc t' /\ t_eps t' = t_eps t /\
  match r' with
  | Some i => (exists c, t' = with_cindex t c) /\ e_dead (obj t i) = false /\ permitted t p i
  | None => forall i, permitted t p i -> e_dead (obj t i) = true
  end.
Proof.
  intros Hw (c & ->) H. destruct r as [i|].
  - destruct H as [Hperm Hd]. split; [exact Hw|]. split; [reflexivity|]. split; [exists c; reflexivity|]. split; [exact Hd|exact Hperm].
  - destruct (revive_all_wfc _ Hw) as [Hw' He]. split; [exact Hw'|]. split; [exact He|exact H].
Qed.

Lemma next_read_spec t p : WFc t ->
  let '(r, t') := next_read t p in
  WFc t' /\ t_eps t' = t_eps t /\
  match r with
  | Some i => (exists c, t' = with_cindex t c) /\ e_dead (obj t i) = false /\ permitted t p i
  | None => forall i, permitted t p i -> e_dead (obj t i) = true
  end.
Proof.
  intros Hwf. pose proof (live_primary_spec t) as Hp.
  assert (Hid : exists c, t = with_cindex t c) by (exists (t_cindex t); destruct t; reflexivity).
  (* [kind t true i] computes to the clause of [permitted] about secondaries, [kind t false i] to True *)
  pose proof (scan_eps_spec t true Hwf) as Hs. pose proof (scan_eps_spec t false Hwf) as Ha.
  unfold next_read. destruct (scan_eps t true) as [r c], (scan_eps t false) as [ra ca]. destruct Hs as [Hw Hs], Ha as [Hwa Ha].
  assert (Hc : exists c', with_cindex t c = with_cindex t c') by (exists c; reflexivity).
  destruct p.
  - (* PPrimary *) apply read_exit; [exact Hwf|exact Hid|exact Hp].
  - (* PPrimaryPreferred *)
    destruct (live_primary t) as [x|].
    + apply (read_exit _ _ t (Some x)); [exact Hwf|exact Hid|]. split; [left; exact (proj1 Hp)|exact (proj2 Hp)].
    + apply read_exit; [exact Hw|exact Hc|]. destruct r as [j|]; [split; [right; exact (proj1 Hs)|exact (proj2 Hs)]|].
      intros i [Hi|Hi]; [exact (Hp i Hi)|exact (Hs i Hi)].
  - (* PSecondary *) apply read_exit; [exact Hw|exact Hc|exact Hs].
  - (* PSecondaryPreferred *)
    destruct r as [j|].
    + apply (read_exit _ _ _ (Some j)); [exact Hw|exact Hc|]. split; [right; exact (proj1 Hs)|exact (proj2 Hs)].
    + (* the primary is tested after the cursor has moved, and live_primary does not look at the cursor *)
      apply (read_exit _ _ _ (live_primary t)); [exact Hw|exact Hc|].
      destruct (live_primary t) as [x|]; [split; [left; exact (proj1 Hp)|exact (proj2 Hp)]|].
      intros i [Hi|Hi]; [exact (Hp i Hi)|exact (Hs i Hi)].
  - (* PAny *)
    apply read_exit; [exact Hwa|exists ca; reflexivity|].
    destruct ra as [j|]; [split; [exact (proj1 (proj1 Ha))|exact (proj2 Ha)]|]. intros i Hi. exact (Ha i (conj Hi I)).
Qed.

(* C20 safety: the endpoint chosen for a read is never marked dead and never excluded by the preference *)
Theorem next_read_safe t p i t' :
  WFc t -> next_read t p = (Some i, t') -> e_dead (obj t i) = false /\ permitted t p i.
Proof. intros Hwf Hn. pose proof (next_read_spec t p Hwf) as H. rewrite Hn in H. tauto. Qed.

(* C20 liveness: whenever a live endpoint permitted by the preference exists, one is returned *)
Theorem next_read_live t p :
  WFc t -> (exists i, permitted t p i /\ e_dead (obj t i) = false) -> exists i t', next_read t p = (Some i, t').
Proof.
  intros Hwf (i & Hperm & Hlive). pose proof (next_read_spec t p Hwf) as H.
  destruct (next_read t p) as [[j|] t']; [eauto|]. destruct H as (_ & _ & H). rewrite (H i Hperm) in Hlive. discriminate.
Qed.

Lemma next_read_wfc t p r t' : WFc t -> next_read t p = (r, t') -> WFc t' /\ t_eps t' = t_eps t.
Proof. intros Hwf Hn. pose proof (next_read_spec t p Hwf) as H. rewrite Hn in H. tauto. Qed.

Open Scope nat_scope.

Lemma set_dead_objs_length t i d : length (t_objs (set_dead t i d)) = length (t_objs t).
Proof. cbn. rewrite map_length, combine_length, seq_length. lia. Qed.

(* the shape of set_dead: a map over the heap paired with its positions *)
Lemma nth_map_indexed {A} (f : nat -> A -> A) (l : list A) (d : A) j :
  j < length l -> nth j (map (fun '(k, e) => f k e) (combine (seq 0 (length l)) l)) d = f j (nth j l d).
Proof.
  intros Hj. set (F := fun '(k, e) => f k e).
  rewrite (nth_indep _ d (F (O, d))) by (rewrite map_length, combine_length, seq_length; lia).
  rewrite map_nth, combine_nth, seq_nth by (exact Hj || apply seq_length). reflexivity.
Qed.

Lemma obj_set_dead t i d j :
  obj (set_dead t i d) j =
    if Nat.eqb j i && Nat.ltb j (length (t_objs t))
    then {| e_url := e_url (obj t j); e_secondary := e_secondary (obj t j); e_dead := d |} else obj t j.
Proof.
  unfold obj, set_dead. cbn [t_objs]. destruct (Nat.ltb_spec j (length (t_objs t))) as [Hlt|Hge].
  - rewrite andb_true_r, (nth_map_indexed (fun k e => if Nat.eqb k i then _ else e)) by exact Hlt. reflexivity.
  - rewrite andb_false_r, !nth_overflow; [reflexivity|lia|rewrite map_length, combine_length, seq_length; lia].
Qed.

(* The measures.  [lives] alone does not do for callAny: the primary object need not be listed (Update with an empty
   primary keeps the old t_primary, and PPrimary can choose it), so marking it dead does not lower [lives]: hence
   + [plive].  A primary that is listed is counted twice, and [targets] holds it twice: harmless. *)
Definition lives (t : topo) : nat := length (filter (fun i => negb (e_dead (obj t i))) (t_eps t)).
Definition npos (t : topo) : nat := length (t_eps t).
Definition plive (t : topo) : nat := match live_primary t with Some _ => 1 | None => 0 end.
Definition mu (t : topo) : nat := lives t + plive t.

(* lives t is length (filter (live t) (t_eps t)) up to conversion *)
Definition live (t : topo) (i : nat) : bool := negb (e_dead (obj t i)).
Definition targets (t : topo) : list nat := t_eps t ++ match t_primary t with Some p => [p] | None => [] end.

Lemma mu_targets t : mu t = length (filter (live t) (targets t)).
Proof.
  unfold mu, lives, plive, live_primary, targets. rewrite filter_app, app_length. f_equal.
  destruct (t_primary t) as [p|]; [|reflexivity]. cbn [filter]. unfold live. destruct (e_dead (obj t p)); reflexivity.
Qed.

Lemma permitted_target t p i : permitted t p i -> In i (targets t).
Proof.
  unfold targets. rewrite in_app_iff.
  assert (Hprim : t_primary t = Some i -> In i (match t_primary t with Some x => [x] | None => [] end)) by (intros ->; left; reflexivity).
  destruct p; cbn [permitted]; tauto.
Qed.

Lemma lives_le t : lives t <= npos t.
Proof. unfold lives, npos. induction (t_eps t) as [|x l IH]; cbn [filter length]; [lia|]. destruct (negb _); cbn [length]; lia. Qed.

Lemma mu_le t : mu t <= S (npos t).
Proof. unfold mu, plive. pose proof (lives_le t). destruct (live_primary t); lia. Qed.

Lemma lives_heal t i : npos (set_dead t i false) = npos t.
Proof. reflexivity. Qed.

(* the largest endpoint list a scripted /info/shards answer can install: its primary and its secondaries *)
Fixpoint shards_max (script : list outcome) : nat :=
  match script with
  | [] => 0
  | OShards _ secs :: r => Nat.max (S (length secs)) (shards_max r)
  | _ :: r => shards_max r
  end.

Lemma shards_max_tl script : shards_max (tl script) <= shards_max script.
Proof. destruct script as [|[| | |p s] r]; cbn [tl shards_max]; lia. Qed.

Lemma shards_max_hd script prim secs : hd OFail script = OShards prim secs -> S (length secs) <= shards_max script.
Proof. destruct script as [|o r]; cbn [hd]; [discriminate|]. intros ->. cbn [shards_max]. lia. Qed.

Lemma fold_left_snd_length {A B C} (step : A * list B -> C -> A * list B) :
  (forall s u, length (snd (step s u)) <= S (length (snd s))) ->
  forall l s, length (snd (fold_left step l s)) <= length (snd s) + length l.
Proof.
  intros Hs. induction l as [|u l IH]; intros s; cbn [fold_left length]; [lia|].
  specialize (IH (step s u)). specialize (Hs s u). lia.
Qed.

Lemma update_npos t prim secs : npos (update t prim secs) <= S (length secs).
Proof.
  unfold npos, update.
  destruct (if (prim =? 0)%N then _ else _) as [[o1 pr] e0] eqn:H0.
  assert (He0 : length e0 <= 1) by (destruct (prim =? 0)%N; injection H0 as _ _ <-; cbn; lia).
  destruct (fold_left _ secs (o1, e0)) as [o2 eps] eqn:Hf. cbn [t_eps].
  change eps with (snd (o2, eps)). rewrite <- Hf. (* the fold is back in the goal, for the lemma to find its step *)
  eapply Nat.le_trans; [apply fold_left_snd_length|cbn [snd]; lia].
  intros [o e] u. destruct (find_old t u (t_eps t)); [|destruct (u =? 0)%N]; cbn [snd]; rewrite ?app_length; cbn [length]; lia.
Qed.

Lemma live_in_range t i : e_dead (obj t i) = false -> i < length (t_objs t).
Proof.
  intros Hl. destruct (Nat.lt_ge_cases i (length (t_objs t))) as [H|H]; [exact H|].
  unfold obj in Hl. rewrite nth_overflow in Hl by exact H. discriminate.
Qed.

(* an object outside the heap reads as dead, so no range condition *)
Lemma live_kill t i j : live (set_dead t i true) j = live t j && negb (Nat.eqb j i).
Proof.
  unfold live. rewrite obj_set_dead. destruct (Nat.eqb j i); [|rewrite andb_true_r; reflexivity].
  rewrite andb_false_r. destruct (Nat.ltb_spec j (length (t_objs t))) as [Hlt|Hge]; [reflexivity|].
  cbn [andb]. destruct (e_dead (obj t j)) eqn:Hd; [reflexivity|]. apply live_in_range in Hd. lia.
Qed.

Lemma do_req_eps t i o : t_eps (snd (do_req t i o)) = t_eps t /\ t_cindex (snd (do_req t i o)) = t_cindex t.
Proof. destruct o; split; reflexivity. Qed.

Lemma do_req_fail t i o t2 : do_req t i o = (false, t2) -> t2 = t \/ t2 = set_dead t i true.
Proof. destruct o; cbn [do_req]; intros [= <-]; auto. Qed.

Lemma fail_frame t i o t2 : do_req t i o = (false, t2) ->
  t_eps (set_dead t2 i true) = t_eps t /\ t_cindex (set_dead t2 i true) = t_cindex t /\
  t_primary (set_dead t2 i true) = t_primary t.
Proof.
  intros Hd. destruct (do_req_fail _ _ _ _ Hd) as [->| ->]; repeat split.
Qed.

(* a connection failure marks the endpoint twice, a 4xx once: the same thing *)
Lemma fail_live t i o t2 j : do_req t i o = (false, t2) -> live (set_dead t2 i true) j = live t j && negb (Nat.eqb j i).
Proof.
  intros Hd. destruct (do_req_fail _ _ _ _ Hd) as [->| ->]; rewrite !live_kill; [reflexivity|].
  rewrite <- andb_assoc, andb_diag. reflexivity.
Qed.

(* l is t_eps for [lives] and [targets] for [mu] *)
Lemma fail_kills t i o t2 l : do_req t i o = (false, t2) -> In i l -> e_dead (obj t i) = false ->
  length (filter (live (set_dead t2 i true)) l) < length (filter (live t) l).
Proof.
  intros Hd Hin Hl. apply (filter_length_lt _ _ l i); [|exact Hin|unfold live; rewrite Hl; reflexivity|].
  - intros x. rewrite (fail_live _ _ _ _ x Hd). intros H. apply andb_true_iff in H. apply H.
  - rewrite (fail_live _ _ _ _ i Hd), Nat.eqb_refl. apply andb_false_r.
Qed.

(* after a failed request (whatever its kind) the chosen endpoint is dead: one live position less *)
Lemma fail_step t i o :
  In i (t_eps t) -> e_dead (obj t i) = false -> fst (do_req t i o) = false ->
  lives (set_dead (snd (do_req t i o)) i true) < lives t /\
  t_eps (set_dead (snd (do_req t i o)) i true) = t_eps t /\
  t_cindex (set_dead (snd (do_req t i o)) i true) = t_cindex t.
Proof.
  intros Hin Hl Hf. destruct (do_req t i o) as [ok t2] eqn:Hd. cbn [fst snd] in *. subst ok.
  destruct (fail_frame t i o t2 Hd) as (He & Hc & _). unfold lives. rewrite He.
  split; [exact (fail_kills t i o t2 _ Hd Hin Hl)|split; [reflexivity|exact Hc]].
Qed.

(* the body shared by discover() and callAny(): an endpoint is chosen, the request fails, the endpoint is marked *)
Lemma failed_round t p i t1 o t2 :
  WFc t -> next_read t p = (Some i, t1) -> do_req t1 i o = (false, t2) ->
  WFc (set_dead t2 i true) /\ npos (set_dead t2 i true) = npos t /\
  mu (set_dead t2 i true) < mu t /\ (In i (t_eps t) -> lives (set_dead t2 i true) < lives t).
Proof.
  intros Hwf Hn Hd. pose proof (next_read_spec t p Hwf) as H. rewrite Hn in H.
  destruct H as (Hwf1 & _ & (c & ->) & Hlive & Hperm).
  (* t1 = with_cindex t c: t's endpoints, objects, primary by computation *)
  destruct (fail_frame _ _ _ _ Hd) as (He & Hc & Hp).
  split; [exact (wfc_same _ _ He Hc Hwf1)|]. split; [exact (f_equal _ He)|]. split.
  - rewrite !mu_targets. unfold targets at 1. rewrite He, Hp. exact (fail_kills _ _ _ _ _ Hd (permitted_target _ _ _ Hperm) Hlive).
  - intros Hin. unfold lives. rewrite He. exact (fail_kills _ _ _ _ _ Hd Hin Hlive).
Qed.

(* the endpoint list discover() leaves is the old one or that of a discovery answer: hence the max *)
Lemma discover_bound fuel : forall t script trace, WFc t -> lives t < fuel ->
  exists ok t2 script' trace', discover fuel t script trace = Some (ok, t2, script', trace') /\
    WFc t2 /\ npos t2 <= Nat.max (npos t) (shards_max script) /\ shards_max script' <= shards_max script.
Proof.
  induction fuel as [|f IH]; intros t script trace Hwf Hl; [lia|].
  cbn [discover]. pose proof (shards_max_tl script) as Htl.
  destruct (next_read t PAny) as [[i|] t1] eqn:Hn; destruct (next_read_wfc _ _ _ _ Hwf Hn) as [Hwf1 He1].
  2: { do 4 eexists. split; [reflexivity|]. unfold npos. rewrite He1. split; [exact Hwf1|lia]. }
  destruct (do_req t1 i (hd OFail script)) as [[|] tr] eqn:Hdr.
  - destruct (hd OFail script) eqn:Ho; try discriminate Hdr.
    + (* OOk *) do 4 eexists. split; [reflexivity|]. injection Hdr as <-. unfold npos. cbn [t_eps set_dead]. rewrite He1.
      split; [exact (wfc_same _ _ (set_dead_eps _ _ _) (set_dead_cindex _ _ _) Hwf1)|lia].
    + (* OShards *) do 4 eexists. split; [reflexivity|].
      pose proof (update_npos tr prim secs). pose proof (shards_max_hd _ _ _ Ho). split; [apply wfc_update|lia].
  - destruct (failed_round _ _ _ _ _ _ Hwf Hn Hdr) as (Hwf2 & Hnp2 & _ & Hlt).
    specialize (Hlt (proj2 (next_read_safe _ _ _ _ Hwf Hn))).
    destruct (IH (set_dead tr i true) (tl script) (trace ++ [e_url (obj t1 i)]) Hwf2 ltac:(lia))
      as (ok & t2 & script' & trace' & Hd & H1 & H2 & H3).
    exists ok, t2, script', trace'. split.
    + (* the model tests the outcome for OShards before it looks at the failure: only OFail and O4xx fail *)
      destruct (hd OFail script); (discriminate Hdr || exact Hd).
    + split; [exact H1|lia].
Qed.

(* C20 termination, part 1: discover() returns after at most (live endpoints + 1) rounds, whatever the
   nodes answer (before fix d82d7d4 an endpoint answering 4xx was asked again for ever) *)
Theorem discover_terminates fuel : forall t script trace,
  WFc t -> lives t < fuel -> discover fuel t script trace <> None.
Proof.
  intros t script trace Hwf Hl. destruct (discover_bound fuel t script trace Hwf Hl) as (ok & t2 & script' & trace' & -> & _).
  discriminate.
Qed.

(* C20 termination, part 2: a read call (callAny) returns.  Every failed request leaves a live endpoint dead, so mu
   drops; discovery runs at most once.  M bounds the endpoint list now and after any scripted discovery answer.
   When no endpoint is left, next_read's failure exit has run revive_all: lives t1 may exceed lives t, mu t is of no
   use any more, and what is left is lives t1 <= npos t1 = npos t <= M (lives_le t1) - enough fuel for the
   discovery, which is called with this round's fuel.  After it mu t2 <= S (npos t2) <= S M (mu_le t2) whatever
   topology it installed: with the round that called it, the S (S M) in the premise. *)
Theorem call_any_terminates (M : nat) (p : pref) (discovery : bool) fuel :
  forall t retried script trace,
  WFc t -> npos t <= M -> shards_max script <= M ->
  mu t + (if retried || negb discovery then 0 else S (S M)) < fuel ->
  call_any fuel t p discovery retried script trace <> None.
Proof.
  induction fuel as [|f IH]; intros t retried script trace Hwf Hn HM Hl; [lia|].
  cbn [call_any]. destruct (next_read t p) as [[i|] t1] eqn:Hr.
  - destruct (do_req t1 i (hd OFail script)) as [[|] t2] eqn:Hd; [discriminate|].
    destruct (failed_round _ _ _ _ _ _ Hwf Hr Hd) as (Hwf2 & Hnp2 & Hmu & _).
    pose proof (shards_max_tl script). apply IH; [exact Hwf2|lia|lia|lia].
  - destruct (next_read_wfc _ _ _ _ Hwf Hr) as [Hwf1 He1].
    (* of the four cases only retried = false, discovery = true goes on: the single discovery *)
    destruct retried, discovery; try discriminate. cbn [negb andb orb] in *.
    assert (Hnp1 : npos t1 = npos t) by (unfold npos; rewrite He1; reflexivity).
    pose proof (lives_le t1) as Hll.
    destruct (discover_bound (S f) t1 script trace Hwf1 ltac:(lia)) as (okd & t2 & script' & trace' & -> & Hwf2 & Hn2 & Hs2).
    apply IH; [exact Hwf2|lia|lia|]. cbn [orb]. pose proof (mu_le t2). lia.
Qed.

(* writes: with a live believed leader, callPrimary issues exactly one request, to that endpoint *)
Theorem call_primary_target fuel t discovery script p :
  primary_of t = (Some p, 0%N) ->
  exists r t2, call_primary fuel t discovery script = Some (r, t2, [e_url (obj t p)]).
Proof.
  intros Hp. unfold call_primary. rewrite Hp. destruct (do_req t p (hd OFail script)) as [ok t2]. eauto.
Qed.

(* ... and without one (no primary known, or it is marked dead) and discovery disabled, none at all *)
Theorem call_primary_no_leader fuel t script :
  (forall p, primary_of t <> (Some p, 0%N)) -> call_primary fuel t false script = Some (1%N, t, []).
Proof.
  intros Hn. unfold call_primary. destruct (primary_of t) as [[p|] c] eqn:Hp; [|reflexivity].
  destruct c as [|c]; [exfalso; exact (Hn p eq_refl)|reflexivity].
Qed.
