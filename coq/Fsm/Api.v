(* api/apihttp + consensus/fsm.go RaftNode.Add/AddBulk: which client requests become replicated commands.
   A request that decodes to an insertion proposes one command holding the digests of its events; an empty
   bulk is refused before it is proposed (RaftNode.AddBulk, fix e61683f); everything else (queries, malformed
   bodies, wrong methods, unknown paths, management requests) proposes nothing. *)
From QV Require Import Base.Util Fsm.Fsm Fsm.FsmProofs.

Section Api.
  Variable E : Type.

  Inductive request := RAdd (e : E) | RBulk (es : list E) | ROther.

  Definition propose (r : request) : option (list E) :=
    match r with
    | RAdd e => Some [e]
    | RBulk [] => None
    | RBulk es => Some es
    | ROther => None
    end.

  (* the pinned code proposed whatever the bulk held *)
  Definition propose_pinned (r : request) : option (list E) :=
    match r with RAdd e => Some [e] | RBulk es => Some es | ROther => None end.

  Lemma propose_nonempty r c : propose r = Some c -> c <> [].
  Proof. destruct r as [e|[|x es]|]; cbn; intros Hp; try discriminate; injection Hp as <-; discriminate. Qed.

  (* C11: every command a request can cause to be replicated is applied by every replica that has applied the log
     before it (whatever requests produced that log), it extends the state by exactly its events, and when
     the log is replayed after a restart it is recognised as already applied: no outcome is ever Panic *)
  Theorem proposals_applicable r c done i :
    propose r = Some c ->
    wf_log E 0 done -> last_index E done < i -> N.of_nat (length (events_of E (done ++ [(i, c)]))) < W64 ->
    apply E (state_of E done) i c =
      (state_of E (done ++ [(i, c)]), Applied (N.of_nat (length (events_of E done))) (length c)) /\
    apply E (state_of E (done ++ [(i, c)])) i c = (state_of E (done ++ [(i, c)]), AlreadyApplied).
  Proof.
    (* wf_log 0 done: a premise of the statement that no step needs (apply_next, apply_seen do without) *)
    intros Hp _ Hi Hlen. split.
    - exact (apply_next E done i c Hi (propose_nonempty r c Hp) Hlen).
    - apply apply_seen. cbn [state_of n_index]. rewrite last_index_snoc. lia.
  Qed.

  (* the command of an empty bulk kills every replica that applies it, on every state *)
  Theorem empty_command_refuted : exists r c, propose_pinned r = Some c /\
    forall n i, (i <=? n_index E n) && negb (n_index E n =? 0) = false -> snd (apply E n i c) = Panic.
  Proof.
    exists (RBulk []), []. split; [reflexivity|]. intros n i Hf. unfold apply. rewrite Hf.
    destruct ((0 <? _) && (_ <=? n_version E n)); reflexivity.
  Qed.
End Api.

(* Correspondence run: per request, the class the harness generated and the number of events the node's
   version advanced by while answering it *)
Definition api_delta (r : request N) : nat := match propose N r with Some c => length c | None => O end.
Definition run_api_cases (cs : list (request N * nat)) : list N :=
  map fst (filter (fun kc => negb (Nat.eqb (api_delta (fst (snd kc))) (snd (snd kc))))
                  (combine (map N.of_nat (seq 0 (length cs))) cs)).
