(* consensus/backup.go + storage/rocks backup engine: a backup is a copy of the durable state tagged with the
   version it was taken at (balloon version - 1, in uint64 arithmetic); identifiers grow and are never reused.
   Model, executable checker and proofs. *)
From QV Require Import Base.Util Base.Facts.

Definition W64b : N := 18446744073709551616.

Record bstate := {
  bs_events : N;                       (* number of events in the log (the log itself is Fsm.node) *)
  bs_backups : list (N * N * N);       (* (id, recorded version, events held) in creation order *)
  bs_next : N                          (* next backup id *)
}.
(* the RocksDB backup engine numbers its backups 1, 2, ... in creation order (rocksdb/backup_test.go
   TestRestoreFromBackup relies on it) *)
Definition binit : bstate := {| bs_events := 0; bs_backups := []; bs_next := 1 |}.

Definition b_add (s : bstate) (k : N) : bstate :=
  {| bs_events := bs_events s + k; bs_backups := bs_backups s; bs_next := bs_next s |}.
Definition b_backup (s : bstate) : bstate :=
  {| bs_events := bs_events s;
     bs_backups := bs_backups s ++ [(bs_next s, (bs_events s + W64b - 1) mod W64b, bs_events s)];
     bs_next := bs_next s + 1 |}.
Definition b_delete (s : bstate) (id : N) : bstate :=
  {| bs_events := bs_events s; bs_backups := filter (fun b => negb (fst (fst b) =? id)) (bs_backups s); bs_next := bs_next s |}.
Definition b_list (s : bstate) : list (N * N) := map fst (bs_backups s).
(* restoring backup id yields a log with exactly that many events *)
Definition b_restore (s : bstate) (id : N) : option N :=
  match filter (fun b => fst (fst b) =? id) (bs_backups s) with (_, _, n) :: _ => Some n | [] => None end.

Section Keyed.
  Context {A : Type} (key : A -> N).
  Lemma find_id_new l x id : (forall b, In b l -> key b < id) -> key x = id ->
    filter (fun b => key b =? id) (l ++ [x]) = [x].
  Proof.
    intros Hl Hx. rewrite filter_app, filter_none.
    - cbn. rewrite Hx, N.eqb_refl. reflexivity.
    - intros b Hb. apply N.eqb_neq. specialize (Hl b Hb). lia.
  Qed.
  Lemma find_id_delete l id other : id <> other ->
    filter (fun b => key b =? id) (filter (fun b => negb (key b =? other)) l) = filter (fun b => key b =? id) l.
  Proof.
    intros Hne. rewrite filter_filter. apply filter_ext. intros b. destruct (N.eqb_spec (key b) id) as [He|_]; [|apply andb_false_r].
    rewrite andb_true_r. apply negb_true_iff, N.eqb_neq. congruence.
  Qed.
End Keyed.

Lemma b_list_backup s : b_list (b_backup s) = b_list s ++ [(bs_next s, (bs_events s + W64b - 1) mod W64b)].
Proof. apply map_app. Qed.

(* C16: a backup of v+1 events (v < 2^64) is listed with the version v *)
Theorem backup_records_version s : 0 < bs_events s -> bs_events s <= W64b ->
  In (bs_next s, bs_events s - 1) (b_list (b_backup s)).
Proof.
  intros Hp Hle. rewrite b_list_backup, mod_wrap_pred by assumption. apply in_elt.
Qed.

Definition ids_below (s : bstate) : Prop := forall b, In b (bs_backups s) -> fst (fst b) < bs_next s.

Lemma ids_below_backup s : ids_below s -> ids_below (b_backup s).
Proof.
  intros H b Hin. apply in_app_or in Hin. cbn [bs_next b_backup].
  destruct Hin as [Hin|[<-|[]]]; [specialize (H b Hin); lia|cbn; lia].
Qed.

(* C16: ... and restores to exactly those v+1 events *)
Theorem restore_of_new_backup s : ids_below s ->
  b_restore (b_backup s) (bs_next s) = Some (bs_events s).
Proof.
  intros Hid. unfold b_restore, b_backup. cbn [bs_backups].
  rewrite (find_id_new (fun b => fst (fst b)) _ _ (bs_next s)); [reflexivity|exact Hid|reflexivity].
Qed.

(* later insertions and deletions of OTHER backups do not change what a backup restores to (later backups: e_restore_step) *)
Theorem restore_stable_add s id k : b_restore (b_add s k) id = b_restore s id.
Proof. reflexivity. Qed.
Theorem restore_stable_delete s id other : id <> other -> b_restore (b_delete s other) id = b_restore s id.
Proof.
  intros Hne. unfold b_restore, b_delete. cbn [bs_backups].
  rewrite (find_id_delete (fun b => fst (fst b))) by exact Hne. reflexivity.
Qed.

Theorem delete_removes_only_named s id b :
  In b (b_list (b_delete s id)) <-> In b (b_list s) /\ fst b <> id.
Proof.
  unfold b_list, b_delete. cbn [bs_backups].
  rewrite <- (filter_of_map fst (fun b => negb (fst b =? id))), filter_In, negb_true_iff, N.eqb_neq. reflexivity.
Qed.

(* the operations of a correspondence run, each observation compared with the model's *)
Inductive bop := BAdd (k : nat) | BBackup | BDelete (id : N) | BList (obs : list (N * N)) | BRestore (id : N) (events : N).
Fixpoint nn_eqb (a b : list (N * N)) : bool :=
  match a, b with
  | [], [] => true
  | (x, y) :: a', (x', y') :: b' => (x =? x') && (y =? y') && nn_eqb a' b'
  | _, _ => false
  end.
Definition run_bop (s : bstate) (o : bop) : bstate * bool :=
  match o with
  | BAdd k => (b_add s (N.of_nat k), true)
  | BBackup => (b_backup s, true)
  | BDelete id => (b_delete s id, true)
  | BList obs => (s, nn_eqb (b_list s) obs)
  | BRestore id n => (s, match b_restore s id with Some m => m =? n | None => false end)
  end.

Fixpoint run_bops (s : bstate) (k : N) (l : list bop) : list N :=
  match l with
  | [] => []
  | o :: r => let '(s', ok) := run_bop s o in (if ok then [] else [k]) ++ run_bops s' (k + 1) r
  end.
Definition run_backup_cases (cs : list (list bop)) : list (N * list N) :=
  filter (fun r => match snd r with [] => false | _ => true end)
    (map (fun '(k, c) => (k, run_bops binit 0 c)) (combine (map N.of_nat (seq 0 (length cs))) cs)).

(* The same machine with the events themselves: what a backup restores to is the log as it was when the
   backup was taken, a prefix of every later log; the counting model above is its image under `abs` *)
Section BackupEvents.
  Variable E : Type.
  Record estate := { es_events : list E; es_backups : list (N * list E); es_next : N }.
  Definition einit : estate := {| es_events := []; es_backups := []; es_next := 1 |}.
  Inductive eop := EAdd (c : list E) | EBackup | EDelete (id : N).
  Definition e_step (s : estate) (o : eop) : estate :=
    match o with
    | EAdd c => {| es_events := es_events s ++ c; es_backups := es_backups s; es_next := es_next s |}
    | EBackup => {| es_events := es_events s; es_backups := es_backups s ++ [(es_next s, es_events s)]; es_next := es_next s + 1 |}
    | EDelete id => {| es_events := es_events s; es_backups := filter (fun b => negb (fst b =? id)) (es_backups s); es_next := es_next s |}
    end.
  Definition e_restore (s : estate) (id : N) : option (list E) :=
    match filter (fun b => fst b =? id) (es_backups s) with (_, evs) :: _ => Some evs | [] => None end.

  Definition abs (s : estate) : bstate :=
    {| bs_events := N.of_nat (length (es_events s));
       bs_backups := map (fun b => (fst b, (N.of_nat (length (snd b)) + W64b - 1) mod W64b, N.of_nat (length (snd b)))) (es_backups s);
       bs_next := es_next s |}.
  Definition abs_op (o : eop) : bop :=
    match o with EAdd c => BAdd (length c) | EBackup => BBackup | EDelete id => BDelete id end.

  Lemma abs_step s o : abs (e_step s o) = fst (run_bop (abs s) (abs_op o)).
  Proof.
    destruct o as [c| |id]; cbn [e_step abs_op run_bop fst]; unfold abs, b_add, b_backup, b_delete; cbn [es_events es_backups es_next bs_events bs_backups bs_next].
    - rewrite app_length, Nat2N.inj_add. reflexivity.
    - rewrite map_app. reflexivity.
    - rewrite filter_of_map. reflexivity.
  Qed.

  Lemma abs_restore s id : b_restore (abs s) id = option_map (fun evs => N.of_nat (length evs)) (e_restore s id).
  Proof.
    unfold b_restore, e_restore, abs. cbn [bs_backups]. rewrite filter_of_map. cbn [fst].
    destruct (filter _ (es_backups s)) as [|[i evs] l]; reflexivity.
  Qed.

  Definition einv (s : estate) : Prop :=
    forall b, In b (es_backups s) -> fst b < es_next s /\ exists rest, es_events s = snd b ++ rest.

  Lemma einv_init : einv einit.
  Proof. intros b []. Qed.

  Lemma einv_step s o : einv s -> einv (e_step s o).
  Proof.
    intros Hi b Hin. destruct o as [c| |id]; cbn [e_step es_backups es_next es_events] in *.
    - destruct (Hi b Hin) as [Hlt [rest Hr]]. split; [exact Hlt|]. exists (rest ++ c). rewrite Hr, app_assoc. reflexivity.
    - apply in_app_or in Hin. destruct Hin as [Hin|[<-|[]]].
      + destruct (Hi b Hin) as [Hlt Hr]. split; [lia|exact Hr].
      + cbn. split; [lia|]. exists []. rewrite app_nil_r. reflexivity.
    - apply filter_In in Hin. exact (Hi b (proj1 Hin)).
  Qed.

  Theorem einv_reach ops : forall s, einv s -> einv (fold_left e_step ops s).
  Proof.
    exact (fold_left_inv_any e_step einv einv_step ops).
  Qed.

  Lemma e_restore_fresh s : einv s -> e_restore (e_step s EBackup) (es_next s) = Some (es_events s).
  Proof.
    intros Hi. unfold e_restore. cbn [e_step es_backups].
    rewrite (find_id_new fst _ _ (es_next s)); [reflexivity| |reflexivity]. intros b Hb. exact (proj1 (Hi b Hb)).
  Qed.

  Definition not_delete (id : N) (o : eop) : Prop := match o with EDelete i => i <> id | _ => True end.

  Lemma e_restore_step s o id evs : not_delete id o -> e_restore s id = Some evs -> e_restore (e_step s o) id = Some evs.
  Proof.
    intros Hnd Hr. destruct o as [c| |other]; cbn [e_step]; unfold e_restore in *; cbn [es_backups] in *.
    - exact Hr.
    - rewrite filter_app. destruct (filter _ (es_backups s)) as [|[i e] l]; [discriminate|exact Hr].
    - rewrite (find_id_delete fst) by exact (not_eq_sym Hnd). exact Hr.
  Qed.

  (* C16: a backup taken in any reachable state s restores, after ANY later sequence of insertions, backups and
     deletions of other backups, to exactly the log as it was in s - which is a prefix of the later log:
     nothing added afterwards, nothing missing. *)
  Theorem backup_restores_log_as_of_backup ops : forall s, einv s ->
    Forall (not_delete (es_next s)) ops ->
    e_restore (fold_left e_step ops (e_step s EBackup)) (es_next s) = Some (es_events s) /\
    exists rest, es_events (fold_left e_step ops (e_step s EBackup)) = es_events s ++ rest.
  Proof.
    intros s Hi Hnd.
    assert (Hr : e_restore (fold_left e_step ops (e_step s EBackup)) (es_next s) = Some (es_events s)).
    { apply (fold_left_inv e_step (fun s' => e_restore s' (es_next s) = Some (es_events s)) (not_delete (es_next s))).
      - intros s' o. apply e_restore_step.
      - exact Hnd.
      - apply e_restore_fresh, Hi. }
    split; [exact Hr|].
    (* what is found is one of the backups, and the invariant holds of each *)
    pose proof (einv_reach ops _ (einv_step s EBackup Hi)) as Hinv. unfold e_restore in Hr.
    destruct (filter _ _) as [|[i e] l] eqn:Hf in Hr; [discriminate|]. injection Hr as ->.
    pose proof (in_eq (i, es_events s) l) as Hin.
    rewrite <- Hf in Hin. apply filter_In in Hin. exact (proj2 (Hinv _ (proj1 Hin))).
  Qed.
End BackupEvents.
