(* consensus/backup.go CreateBackup against the apply path of the same node (consensus/fsm.go applyAdd), as a step
   machine over schedules (the style of Fsm/Window.v):
     applyAdd     = applyMu.Lock ; balloon.AddBulk (in-memory version advances) ; store.Mutate ; applyMu.Unlock
     CreateBackup = applyMu.RLock ; v := balloon.Version() ; db.Backup("v-1") (copies the store) ; applyMu.RUnlock
     a query      = applyMu.RLock ; ... ; applyMu.RUnlock                 (any number of them)
   A schedule is the order in which these steps complete; a step its lock does not permit is not enabled (run = None).
   Three lock disciplines of CreateBackup:
     LockAll   the read lock is held from before the version is read until the copy is finished (the code at HEAD);
     LockRead  the read lock is released after the version is read, before the copy (a "hold it briefly" rewrite);
     NoLock    CreateBackup ignores applyMu (the pinned commit).
   Observable: for every backup, (the log as the in-memory structures had it when the version was read - what the
   metadata "version = length - 1" names, the log the copied store holds - what a restore yields). *)
From QV Require Import Base.Util.

Section BackupConc.
  Variable E : Type.

  Inductive disc := LockAll | LockRead | NoLock.

  Record cst := {
    c_store : list E; c_mem : list E; c_pending : bool;
    c_writer : bool; c_readers : nat;          (* applyMu: the writer, the queries holding it shared *)
    c_block : bool;                            (* CreateBackup holds it shared *)
    c_bver : option (list E)                   (* CreateBackup has read the version (the log it names) and not copied yet *)
  }.
  Definition cinit (evs : list E) : cst :=
    {| c_store := evs; c_mem := evs; c_pending := false; c_writer := false; c_readers := 0; c_block := false; c_bver := None |}.

  Inductive cstep :=
  | AWLock | ACompute (c : list E) | APersist | AWUnlock     (* the apply goroutine *)
  | QLock | QUnlock                                           (* queries *)
  | BLock | BRead | BCopy | BUnlock.                          (* CreateBackup (n.Lock serialises backups: one at a time) *)

  Definition upd (s : cst) store mem pending writer readers block bver : cst :=
    {| c_store := store; c_mem := mem; c_pending := pending; c_writer := writer; c_readers := readers; c_block := block; c_bver := bver |}.

  Definition cstep1 (d : disc) (s : cst) (x : cstep) : option (cst * list (list E * list E)) :=
    match x with
    | AWLock => if negb (c_writer s) && Nat.eqb (c_readers s) 0 && negb (c_block s)
                then Some (upd s (c_store s) (c_mem s) (c_pending s) true (c_readers s) (c_block s) (c_bver s), []) else None
    | ACompute c => if c_writer s && negb (c_pending s)
                then Some (upd s (c_store s) (c_mem s ++ c) true (c_writer s) (c_readers s) (c_block s) (c_bver s), []) else None
    | APersist => if c_pending s
                then Some (upd s (c_mem s) (c_mem s) false (c_writer s) (c_readers s) (c_block s) (c_bver s), []) else None
    | AWUnlock => if c_writer s && negb (c_pending s)
                then Some (upd s (c_store s) (c_mem s) false false (c_readers s) (c_block s) (c_bver s), []) else None
    | QLock => if negb (c_writer s)
                then Some (upd s (c_store s) (c_mem s) (c_pending s) false (S (c_readers s)) (c_block s) (c_bver s), []) else None
    | QUnlock => match c_readers s with
                 | O => None
                 | S k => Some (upd s (c_store s) (c_mem s) (c_pending s) (c_writer s) k (c_block s) (c_bver s), [])
                 end
    | BLock => match d with
               | NoLock => None
               | _ => if negb (c_writer s) && negb (c_block s) && match c_bver s with None => true | Some _ => false end
                      then Some (upd s (c_store s) (c_mem s) (c_pending s) false (c_readers s) true None, []) else None
               end
    | BRead => match c_bver s with
               | Some _ => None
               | None => if match d with NoLock => true | _ => c_block s end
                         then Some (upd s (c_store s) (c_mem s) (c_pending s) (c_writer s) (c_readers s) (c_block s) (Some (c_mem s)), [])
                         else None
               end
    | BCopy => match c_bver s with
               | None => None
               | Some m => if match d with LockAll => c_block s | LockRead => negb (c_block s) | NoLock => true end
                           then Some (upd s (c_store s) (c_mem s) (c_pending s) (c_writer s) (c_readers s) (c_block s) None, [(m, c_store s)])
                           else None
               end
    | BUnlock => if c_block s && match d with LockAll => (match c_bver s with None => true | Some _ => false end) | _ => true end
                 then Some (upd s (c_store s) (c_mem s) (c_pending s) (c_writer s) (c_readers s) false (c_bver s), []) else None
    end.

  Fixpoint crun (d : disc) (s : cst) (sched : list cstep) : option (cst * list (list E * list E)) :=
    match sched with
    | [] => Some (s, [])
    | x :: r => match cstep1 d s x with
                | None => None
                | Some (s1, o1) => match crun d s1 r with
                                   | None => None
                                   | Some (s2, o2) => Some (s2, o1 ++ o2)
                                   end
                end
    end.

  (* the first clause: applyAdd computes and persists under applyMu.Lock; the second is the RWMutex applyMu itself; the third:
     store.Mutate writes what balloon.AddBulk computed; the fourth: CreateBackup reads balloon.Version() while it holds
     the lock shared *)
  Definition cinv (s : cst) : Prop :=
    (c_pending s = true -> c_writer s = true) /\
    (c_writer s = true -> c_readers s = O /\ c_block s = false) /\
    (c_pending s = false -> c_mem s = c_store s) /\
    (forall m, c_bver s = Some m -> c_block s = true /\ m = c_mem s).

  Lemma cinv_init evs : cinv (cinit evs).
  Proof. repeat split; intros; try discriminate; reflexivity. Qed.

  Lemma cstep1_inv s x : cinv s ->
    match cstep1 LockAll s x with Some (s', o) => cinv s' /\ Forall (fun b => fst b = snd b) o | None => True end.
  Proof.
    unfold cinv. destruct s as [st me pe wr rd bl bv]; cbn. intros (H1 & H2 & H3 & H4). destruct wr.
    - (* the writer holds the lock: no reader, no backup in progress; only its own three steps are enabled *)
      destruct (H2 eq_refl) as [-> ->].
      assert (bv = None) as -> by (destruct bv as [m|]; [destruct (H4 m eq_refl); discriminate|reflexivity]).
      destruct x, pe; cbn; trivial.
      all: split; [repeat split; intros; try discriminate; auto|constructor].
    - (* nobody writes: nothing is pending, memory and store agree, and a version that was read names this log *)
      assert (pe = false) as -> by (destruct pe; [discriminate (H1 eq_refl)|reflexivity]). rewrite (H3 eq_refl) in *.
      destruct bv as [m|]; [destruct (H4 m eq_refl) as [-> ->]|destruct bl].
      all: destruct x, rd; cbn; trivial.
      (* BCopy, the one step that observes, puts out (m, store): one term twice since the rewritings with H3 and H4 *)
      all: split; [repeat split; intros; try discriminate; auto; congruence|repeat constructor].
  Qed.

  (* C16: every backup of every schedule the lock permits - any number of insertions, queries and backups in any
     interleaving - holds exactly the log its recorded version names *)
  Theorem backup_consistent sched : forall s s' outs, cinv s -> crun LockAll s sched = Some (s', outs) ->
    cinv s' /\ Forall (fun b => fst b = snd b) outs.
  Proof.
    induction sched as [|x r IH]; intros s s' outs Hi Hr; cbn in Hr.
    - injection Hr as <- <-. split; [exact Hi|constructor].
    - pose proof (cstep1_inv s x Hi) as H1. destruct (cstep1 LockAll s x) as [[s1 o1]|]; [|discriminate].
      destruct (crun LockAll s1 r) as [[s2 o2]|] eqn:H2; [|discriminate]. injection Hr as <- <-.
      destruct H1 as [Hi1 Ho1]. destruct (IH s1 s2 o2 Hi1 H2) as [Hi2 Ho2].
      split; [exact Hi2|]. apply Forall_app. split; assumption.
  Qed.

  (* released after the version is read: an insertion completes between the read and the copy, the backup holds MORE
     than its recorded version names *)
  Theorem backup_lock_released_early_refuted (e : E) :
    exists sched s' outs, crun LockRead (cinit []) sched = Some (s', outs) /\
      Exists (fun b => length (snd b) = S (length (fst b))) outs.
  Proof.
    exists [BLock; BRead; BUnlock; AWLock; ACompute [e]; APersist; AWUnlock; BCopy]. eexists. eexists.
    split; [vm_compute; reflexivity|]. apply Exists_cons_hd. reflexivity.
  Qed.

  (* no lock at all (the pinned commit): the version is read between "computed" and "persisted", the backup holds LESS
     than its recorded version names *)
  Theorem backup_unlocked_refuted (e : E) :
    exists sched s' outs, crun NoLock (cinit []) sched = Some (s', outs) /\
      Exists (fun b => length (fst b) = S (length (snd b))) outs.
  Proof.
    exists [AWLock; ACompute [e]; BRead; BCopy; APersist; AWUnlock]. eexists. eexists.
    split; [vm_compute; reflexivity|]. apply Exists_cons_hd. reflexivity.
  Qed.

  (* the full discipline does not permit either schedule: the insertion waits for the backup, the backup for the insertion *)
  Theorem backup_insertion_waits c : crun LockAll (cinit []) [BLock; BRead; AWLock] = None /\
                                     crun LockAll (cinit []) [AWLock; ACompute c; BLock] = None.
  Proof. split; vm_compute; reflexivity. Qed.

  (* non-vacuity: a schedule with two insertions, a query and two backups that the discipline permits *)
  Example backup_schedule_permitted (e1 e2 : E) :
    exists s' , crun LockAll (cinit []) [AWLock; ACompute [e1]; APersist; AWUnlock; QLock; BLock; BRead; BCopy; QUnlock; BUnlock;
                                         AWLock; ACompute [e2]; APersist; AWUnlock; BLock; BRead; BCopy; BUnlock]
                = Some (s', [([e1], [e1]); ([e1; e2], [e1; e2])]).
  Proof. eexists. vm_compute. reflexivity. Qed.
End BackupConc.
