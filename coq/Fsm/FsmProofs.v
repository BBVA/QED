(* C05-C09: a node's durable state is a function (state_of) of the prefix of the committed log it has applied; apply, deliver
   and life move along that function, however raft re-delivers across restarts and crashes. *)
From QV Require Import Base.Util Base.Facts Fsm.Fsm.

Section FsmProofs.
  Variable E : Type.
  Notation node := (node E).
  Notation apply := (apply E).
  Notation deliver := (deliver E).
  Notation rlog := (rlog E).

  (* a well-formed committed log: raft indexes start above lo and increase, no empty command (C11 keeps them out) *)
  Fixpoint wf_log (lo : N) (l : rlog) : Prop :=
    match l with
    | [] => True
    | (idx, cmd) :: r => lo < idx /\ cmd <> [] /\ wf_log idx r
    end.

  Definition events_of (l : rlog) : list E := concat (map snd l).
  Definition last_index (l : rlog) : N := match rev l with [] => 0 | (i, _) :: _ => i end.

  Definition state_of (done : rlog) : node :=
    {| n_events := events_of done; n_index := last_index done;
       n_version := match done with [] => 0 | _ => N.of_nat (length (events_of done)) - 1 end |}.

  Lemma events_of_app a b : events_of (a ++ b) = events_of a ++ events_of b.
  Proof. unfold events_of. rewrite map_app, concat_app. reflexivity. Qed.

  Lemma events_of_snoc done i c : events_of (done ++ [(i, c)]) = events_of done ++ c.
  Proof. rewrite events_of_app. f_equal. apply app_nil_r. Qed.

  Lemma events_single i (c : list E) : events_of [(i, c)] = c.
  Proof. exact (events_of_snoc [] i c). Qed.

  Lemma last_index_snoc p i c : last_index (p ++ [(i, c)]) = i.
  Proof. unfold last_index. rewrite rev_app_distr. reflexivity. Qed.

  (* state_of without its case distinction: on the empty log 0 - 1 = 0 in N *)
  Lemma state_of_eq done : state_of done =
    {| n_events := events_of done; n_index := last_index done; n_version := N.of_nat (length (events_of done)) - 1 |}.
  Proof. destruct done; reflexivity. Qed.

  Lemma state_of_snoc done i c : state_of (done ++ [(i, c)]) =
    {| n_events := events_of done ++ c; n_index := i; n_version := N.of_nat (length (events_of done) + length c) - 1 |}.
  Proof. rewrite state_of_eq, events_of_snoc, last_index_snoc, app_length. reflexivity. Qed.

  Fixpoint last_from (lo : N) (l : rlog) : N := match l with [] => lo | (i, _) :: r => last_from i r end.

  Lemma last_from_snoc p : forall lo i c, last_from lo (p ++ [(i, c)]) = i.
  Proof. induction p as [|[j d] p IH]; intros lo i c; [reflexivity|apply IH]. Qed.

  (* last_index (through rev) is what state_of and the statements speak of; last_from, a fold, is what inductions over wf_log
     follow: this equation is the only bridge, applied where a proof meets a statement *)
  Lemma last_index_from l : last_index l = last_from 0 l.
  Proof. destruct l as [|[i c] l] using rev_ind; [reflexivity|]. rewrite last_index_snoc, last_from_snoc. reflexivity. Qed.

  Lemma last_index_cons x (l : rlog) : last_index (x :: l) = match l with [] => fst x | _ => last_index l end.
  Proof. destruct x as [i c]. destruct l as [|[j d] l']; [reflexivity|]. rewrite !last_index_from. reflexivity. Qed.

  Lemma wf_log_app a : forall lo b, wf_log lo (a ++ b) <-> wf_log lo a /\ wf_log (last_from lo a) b.
  Proof. induction a as [|[i c] a IH]; intros lo b; cbn [app wf_log last_from]; [tauto|]. rewrite IH. tauto. Qed.

  Lemma wf_log_bounds l : forall lo, wf_log lo l ->
    lo <= last_from lo l /\ forall i c, In (i, c) l -> lo < i <= last_from lo l.
  Proof.
    induction l as [|[j d] l IH]; intros lo H; cbn [last_from].
    - split; [lia|]. intros i c [].
    - destruct H as (H1 & _ & H3). destruct (IH j H3) as [A B]. split; [lia|].
      intros i c [Heq|Hin]; [injection Heq as <- _; lia|]. destruct (B i c Hin). lia.
  Qed.

  Lemma wf_log_events_pos lo l : wf_log lo l -> l <> [] -> (0 < length (events_of l))%nat.
  Proof.
    intros H Hne. destruct l as [|[i [|e c]] l]; [contradiction|destruct H as (_ & Hc & _); contradiction|].
    cbn. lia.
  Qed.

  Lemma wf_log_weaken lo lo' l : lo' <= lo -> wf_log lo l -> wf_log lo' l.
  Proof. destruct l as [|[i c] r]; [intros; exact I|]. cbn. intros Hle (H1 & H2 & H3). repeat split; [lia|exact H2|exact H3]. Qed.

  (* no wf_log on done: apply reads only the last index and the number of events held *)
  Lemma apply_next done i c :
    last_index done < i -> c <> [] -> N.of_nat (length (events_of (done ++ [(i, c)]))) < W64 ->
    apply (state_of done) i c = (state_of (done ++ [(i, c)]), Applied (N.of_nat (length (events_of done))) (length c)).
  Proof.
    intros Hi Hc Hlen.
    rewrite events_of_snoc, app_length in Hlen. rewrite state_of_snoc, (state_of_eq done).
    unfold Fsm.apply. cbn [n_index n_events n_version].
    assert (Hcl : (0 < length c)%nat) by (destruct c; [contradiction|cbn; lia]).
    rewrite (proj2 (N.leb_gt _ _) Hi), mod_wrap_pred by lia. cbn [andb].
    set (ver := N.of_nat (length (events_of done))).
    (* the "balloonVersion panic!" guard: it cannot fire because the command is not empty *)
    assert (Hguard : (0 <? ver + N.of_nat (length c) - 1) && (ver + N.of_nat (length c) - 1 <=? ver - 1) = false)
      by (rewrite andb_false_iff, N.ltb_ge, N.leb_gt; lia).
    rewrite Hguard.
    (* apply's match on the empty command; the two states spell the version differently *)
    destruct c; [contradiction|]. do 3 f_equal. lia.
  Qed.

  Lemma apply_fresh done i c todo :
    wf_log 0 (done ++ (i, c) :: todo) -> N.of_nat (length (events_of (done ++ [(i, c)]))) < W64 ->
    apply (state_of done) i c = (state_of (done ++ [(i, c)]), Applied (N.of_nat (length (events_of done))) (length c)).
  Proof.
    intros Hwf. apply wf_log_app in Hwf. destruct Hwf as (_ & Hi & Hc & _). rewrite <- last_index_from in Hi.
    exact (apply_next done i c Hi Hc).
  Qed.

  (* the guard looks at the index alone, not at what is delivered under it *)
  Lemma apply_seen n j d : 0 < j <= n_index E n -> apply n j d = (n, AlreadyApplied).
  Proof.
    intros H. unfold Fsm.apply. rewrite (proj2 (N.leb_le _ _) (proj2 H)), (proj2 (N.eqb_neq _ _)) by lia. reflexivity.
  Qed.

  Lemma apply_old done j d :
    wf_log 0 done -> In (j, d) done -> apply (state_of done) j d = (state_of done, AlreadyApplied).
  Proof.
    intros Hwf Hin. apply apply_seen. cbn [state_of n_index]. rewrite last_index_from. exact (proj2 (wf_log_bounds done 0 Hwf) j d Hin).
  Qed.

  Fixpoint applied_outs (v : N) (es : rlog) : list outcome :=
    match es with
    | [] => []
    | (_, c) :: r => Applied v (length c) :: applied_outs (v + N.of_nat (length c)) r
    end.

  (* stopping and starting again between two deliveries changes nothing, for any node *)
  Lemma deliver_app a : forall n b, deliver n (a ++ b) =
    let '(n1, o1) := deliver n a in let '(n2, o2) := deliver n1 b in (n2, o1 ++ o2).
  Proof.
    induction a as [|[i c] a IH]; intros n b; cbn [app Fsm.deliver].
    - destruct (deliver n b); reflexivity.
    - destruct (apply n i c) as [n1 o]. rewrite IH. destruct (deliver n1 a) as [n2 o2]. destruct (deliver n2 b). reflexivity.
  Qed.

  Lemma deliver_old done es :
    wf_log 0 done -> (forall x, In x es -> In x done) ->
    deliver (state_of done) es = (state_of done, map (fun _ => AlreadyApplied) es).
  Proof.
    intros Hwf. induction es as [|[j d] es IH]; intros Hall; [reflexivity|].
    cbn [Fsm.deliver map]. rewrite (apply_old done j d Hwf (Hall _ (in_eq _ _))).
    rewrite IH by (intros x Hx; apply Hall; right; exact Hx). reflexivity.
  Qed.

  (* the empty node [Fsm.fresh] is [state_of []] by computation: a delivery to the empty node is the instance done = [] *)
  Lemma deliver_fresh es : forall done rest,
    wf_log 0 (done ++ es ++ rest) -> N.of_nat (length (events_of (done ++ es))) < W64 ->
    deliver (state_of done) es = (state_of (done ++ es), applied_outs (N.of_nat (length (events_of done))) es).
  Proof.
    induction es as [|[i c] es IH]; intros done rest Hwf Hlen; [rewrite app_nil_r; reflexivity|].
    cbn [Fsm.deliver applied_outs]. rewrite (apply_fresh done i c (es ++ rest) Hwf), (IH (done ++ [(i, c)]) rest).
    - rewrite events_of_snoc, app_length, Nat2N.inj_add, <- app_snoc. reflexivity.
    - rewrite <- app_snoc. exact Hwf.
    - rewrite <- app_snoc. exact Hlen.
    - rewrite app_snoc, events_of_app, app_length in Hlen. lia.
  Qed.

  (* C07, one incarnation: raft re-delivers some entries applied before (old) and then the next ones (fresh) *)
  Theorem incarnation_correct done old fresh rest :
    wf_log 0 (done ++ fresh ++ rest) -> N.of_nat (length (events_of (done ++ fresh))) < W64 ->
    (forall x, In x old -> In x done) ->
    deliver (state_of done) (old ++ fresh) =
      (state_of (done ++ fresh), map (fun _ => AlreadyApplied) old ++ applied_outs (N.of_nat (length (events_of done))) fresh).
  Proof.
    intros Hwf Hlen Hold.
    rewrite deliver_app, deliver_old, (deliver_fresh fresh done rest Hwf Hlen); [reflexivity| |exact Hold].
    exact (proj1 (proj1 (wf_log_app _ _ _) Hwf)).
  Qed.

  Fixpoint life_spec (done : rlog) (incs : list (rlog * rlog)) : rlog * list (list outcome) :=
    match incs with
    | [] => (done, [])
    | (old, fresh) :: r =>
        let '(d, oss) := life_spec (done ++ fresh) r in
        (d, (map (fun _ => AlreadyApplied) old ++ applied_outs (N.of_nat (length (events_of done))) fresh) :: oss)
    end.

  Fixpoint olds_ok (done : rlog) (incs : list (rlog * rlog)) : Prop :=
    match incs with
    | [] => True
    | (old, fresh) :: r => (forall x, In x old -> In x done) /\ olds_ok (done ++ fresh) r
    end.

  (* C05 / C07 / C08: a whole life.  However often the process stops, crashes and restarts, and wherever raft
     resumes delivery (at or before the first entry not yet applied), the durable state after the incarnations
     is the state after applying each committed entry exactly once, in order; no delivery panics; every fresh
     entry gets the dense version range that follows the previous one. *)
  Theorem life_correct incs : forall done rest,
    wf_log 0 (done ++ concat (map snd incs) ++ rest) ->
    N.of_nat (length (events_of (done ++ concat (map snd incs)))) < W64 ->
    olds_ok done incs ->
    life E (state_of done) (map (fun of => fst of ++ snd of) incs) =
      (state_of (fst (life_spec done incs)), snd (life_spec done incs)) /\
    fst (life_spec done incs) = done ++ concat (map snd incs).
  Proof.
    induction incs as [|[old fresh] incs IH]; intros done rest Hwf Hlen Hok.
    - cbn. rewrite app_nil_r. split; reflexivity.
    - cbn [map concat snd fst Fsm.life life_spec olds_ok] in *. destruct Hok as [Hold Hok].
      rewrite <- app_assoc in Hwf.
      assert (Hlen1 : N.of_nat (length (events_of (done ++ fresh))) < W64).
      { rewrite app_assoc, (events_of_app (done ++ fresh)), app_length in Hlen. lia. }
      rewrite (incarnation_correct done old fresh (concat (map snd incs) ++ rest) Hwf Hlen1 Hold).
      rewrite app_assoc in Hwf, Hlen.
      destruct (IH (done ++ fresh) rest Hwf Hlen Hok) as [Hl Hd].
      rewrite Hl. destruct (life_spec (done ++ fresh) incs) as [d oss]. cbn [fst snd] in *.
      split; [reflexivity|]. rewrite Hd, <- app_assoc. reflexivity.
  Qed.

  (* C06: replicas that have applied the same committed prefix are in the same durable state - there is
     nothing else in state_of than the prefix *)
  Theorem replicas_agree done incs1 incs2 rest1 rest2 :
    wf_log 0 (done ++ concat (map snd incs1) ++ rest1) -> wf_log 0 (done ++ concat (map snd incs2) ++ rest2) ->
    N.of_nat (length (events_of (done ++ concat (map snd incs1)))) < W64 ->
    olds_ok done incs1 -> olds_ok done incs2 ->
    concat (map snd incs1) = concat (map snd incs2) ->
    fst (life E (state_of done) (map (fun of => fst of ++ snd of) incs1)) =
    fst (life E (state_of done) (map (fun of => fst of ++ snd of) incs2)).
  Proof.
    intros Hw1 Hw2 Hl Ho1 Ho2 Heq.
    destruct (life_correct incs1 done rest1 Hw1 Hl Ho1) as [H1 H1']. rewrite Heq in Hl.
    destruct (life_correct incs2 done rest2 Hw2 Hl Ho2) as [H2 H2'].
    rewrite H1, H2. cbn [fst]. rewrite H1', H2', Heq. reflexivity.
  Qed.

  Fixpoint nseq (v : N) (n : nat) : list N := match n with O => [] | S k => v :: nseq (v + 1) k end.
  Definition issued (os : list outcome) : list N :=
    concat (map (fun o => match o with Applied v c => nseq v c | _ => [] end) os).

  Lemma nseq_app a : forall v b, nseq v (a + b) = nseq v a ++ nseq (v + N.of_nat a) b.
  Proof.
    induction a as [|a IH]; intros v b; cbn [nseq Nat.add app].
    - rewrite N.add_0_r. reflexivity.
    - rewrite IH. do 3 f_equal. lia.
  Qed.

  Lemma issued_app a b : issued (a ++ b) = issued a ++ issued b.
  Proof. unfold issued. rewrite map_app, concat_app. reflexivity. Qed.

  Lemma issued_cons o os : issued (o :: os) = match o with Applied v c => nseq v c | _ => [] end ++ issued os.
  Proof. reflexivity. Qed.

  Lemma issued_old (old : rlog) : issued (map (fun _ => AlreadyApplied) old) = [].
  Proof. induction old as [|x old IH]; [reflexivity|exact IH]. Qed.

  Lemma issued_applied_outs es : forall v, issued (applied_outs v es) = nseq v (length (events_of es)).
  Proof.
    induction es as [|[i c] es IH]; intros v; [reflexivity|].
    cbn [applied_outs]. rewrite issued_cons, IH. unfold events_of. cbn [map concat snd]. rewrite app_length, nseq_app. reflexivity.
  Qed.

  Lemma issued_life_spec incs : forall done,
    issued (concat (snd (life_spec done incs))) =
      nseq (N.of_nat (length (events_of done))) (length (events_of (concat (map snd incs)))).
  Proof.
    induction incs as [|[old fresh] incs IH]; intros done; [reflexivity|].
    cbn [life_spec map concat snd]. specialize (IH (done ++ fresh)).
    destruct (life_spec (done ++ fresh) incs) as [d oss]. cbn [snd concat] in *.
    rewrite !issued_app, issued_old, issued_applied_outs, IH. cbn [app].
    rewrite (events_of_app fresh), !app_length, nseq_app, events_of_app, app_length. do 2 f_equal. lia.
  Qed.

  (* C05: over any life (any number of stops, kills, replays of already applied entries) one version per accepted event, in
     order, none skipped, none twice; the final state holds exactly the accepted events *)
  Theorem versions_dense incs done rest :
    wf_log 0 (done ++ concat (map snd incs) ++ rest) ->
    N.of_nat (length (events_of (done ++ concat (map snd incs)))) < W64 ->
    olds_ok done incs ->
    issued (concat (snd (life E (state_of done) (map (fun of => fst of ++ snd of) incs)))) =
      nseq (N.of_nat (length (events_of done))) (length (events_of (concat (map snd incs)))) /\
    n_events E (fst (life E (state_of done) (map (fun of => fst of ++ snd of) incs))) =
      events_of done ++ events_of (concat (map snd incs)).
  Proof.
    intros Hwf Hlen Hok. destruct (life_correct incs done rest Hwf Hlen Hok) as [Hl Hd].
    rewrite Hl. cbn [fst snd]. split; [apply issued_life_spec|]. rewrite Hd. cbn [state_of n_events]. apply events_of_app.
  Qed.

  (* C08: a clean stop and reopen anywhere is invisible (neither premise is used: this is deliver_app) *)
  Theorem restart_invisible a b done rest :
    wf_log 0 (done ++ (a ++ b) ++ rest) -> N.of_nat (length (events_of (done ++ a ++ b))) < W64 ->
    fst (life E (state_of done) [a ++ b]) = fst (life E (state_of done) [a; b]) /\
    concat (snd (life E (state_of done) [a ++ b])) = concat (snd (life E (state_of done) [a; b])).
  Proof.
    intros _ _. cbn [Fsm.life]. rewrite deliver_app.
    destruct (deliver (state_of done) a) as [n1 o1]. destruct (deliver n1 b) as [n2 o2].
    cbn. rewrite !app_nil_r. split; reflexivity.
  Qed.

  (* the write-ahead log the leader holds for the entries es applied on top of done *)
  Fixpoint wal (done es : rlog) : list (batch E) :=
    match es with
    | [] => []
    | (i, c) :: r =>
        {| b_prev := n_version E (state_of done); b_new := n_version E (state_of (done ++ [(i, c)]));
           b_idx := i; b_first := length (events_of done); b_cmd := c |} :: wal (done ++ [(i, c)]) r
    end.

  (* C09: the follower is exactly at `done`; the leader streams the batches of the entries after it: all are taken,
     and loading them yields the state of a replica that applied every entry itself *)
  Theorem transfer_complete fresh : forall done rest,
    wf_log 0 (done ++ fresh ++ rest) -> N.of_nat (length (events_of (done ++ fresh))) < W64 ->
    fetch E (n_version E (state_of done)) (wal done fresh) = Some (wal done fresh) /\
    load E (state_of done) (wal done fresh) = state_of (done ++ fresh).
  Proof.
    induction fresh as [|[i c] fresh IH]; intros done rest Hwf Hlen; [rewrite app_nil_r; split; reflexivity|].
    destruct (IH (done ++ [(i, c)]) rest) as [IHf IHl]; [rewrite <- app_snoc; assumption..|].
    assert (Hcl : (0 < length c)%nat).
    { apply wf_log_app, proj2 in Hwf. destruct Hwf as (_ & Hc & _). destruct c; [contradiction|cbn; lia]. }
    cbn [wal Fsm.fetch Fsm.load fold_left b_prev b_new b_idx b_first b_cmd].
    (* the filter takes the batch: with v events held the last version is v - 1, also for v = 0 *)
    rewrite IHf, N.ltb_irrefl. rewrite state_of_snoc in IHl |- *. rewrite (state_of_eq done). cbn [n_version n_events].
    set (v := length (events_of done)).
    (* 2nd test: the batch is not older *)
    assert (Hnot_older : (N.of_nat (v + length c) - 1 <? N.of_nat v - 1) = false) by (apply N.ltb_ge; lia).
    (* 3rd test: equal only if v = 0, |c| = 1; then last = 0 exempts *)
    assert (Hnot_held : (N.of_nat (v + length c) - 1 =? N.of_nat v - 1) && negb (N.of_nat v - 1 =? 0) = false)
      by (rewrite andb_false_iff, negb_false_iff, N.eqb_neq, N.eqb_eq; lia).
    rewrite Hnot_older, Hnot_held. split; [reflexivity|].
    rewrite <- app_snoc in IHl. unfold v. rewrite firstn_all. exact IHl.
  Qed.

  (* a gap: the leader's log no longer holds the batch that follows the follower's state; the first batch it
     can stream starts beyond the follower's version and the transfer is refused - provided the follower's
     "last applied version" is not the ambiguous 0 with exactly one event missing *)
  Theorem transfer_gap_refused done missing i c rest :
    wf_log 0 (done ++ missing ++ (i, c) :: rest) -> missing <> [] ->
    (done <> [] \/ (2 <= length (events_of missing))%nat) ->
    fetch E (n_version E (state_of done)) (wal (done ++ missing) ((i, c) :: rest)) = None.
  Proof.
    intros Hwf Hmiss Hamb. cbn [wal Fsm.fetch b_prev]. rewrite !state_of_eq. cbn [n_version].
    rewrite events_of_app, app_length.
    apply wf_log_app in Hwf. destruct Hwf as [Hd Hwf]. apply wf_log_app, proj1 in Hwf.
    pose proof (wf_log_events_pos _ missing Hwf Hmiss) as Hm.
    assert (Hlt : (N.of_nat (length (events_of done)) - 1 <? N.of_nat (length (events_of done) + length (events_of missing)) - 1) = true).
    { apply N.ltb_lt. destruct Hamb as [Hne|H2]; [pose proof (wf_log_events_pos 0 done Hd Hne)|]; lia. }
    rewrite Hlt. reflexivity.
  Qed.

  (* the premise `done <> [] \/ 2 <= |missing events|` of transfer_gap_refused cannot be dropped: a node with
     an empty log reports "last applied version 0", which is also what a node holding exactly event 0 reports;
     a stream starting at version 1 is therefore served to it and event 0 is lost.  (Confirmed on the real
     code: known finding C09:gap-served:new-node-one-event-missing.) *)
  Theorem transfer_gap_new_node_one_event_refuted (e : E) :
    exists missing i c rest,
      wf_log 0 ([] ++ missing ++ (i, c) :: rest) /\ missing <> [] /\
      fetch E (n_version E (state_of [])) (wal ([] ++ missing) ((i, c) :: rest)) <> None.
  Proof.
    exists [(1, [e])], 2, [e], []. split; [cbn; repeat split; try lia; discriminate|]. split; [discriminate|].
    cbn. discriminate.
  Qed.
End FsmProofs.
