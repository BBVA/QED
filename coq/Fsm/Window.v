(* consensus/fsm.go (Apply/applyAdd, the query methods) and consensus/cluster.go (RaftNode.applyMu): the apply path and the
   query path of one node.
   applyAdd = { balloon.Add/AddBulk (advances the in-memory version and caches and returns the mutations) ;
                store.Mutate (persists them together with the fsm state) }.
   Queries read the in-memory version/caches AND the stored tables.
   RaftNode.applyMu (a sync.RWMutex) is held for writing around the whole applyAdd and for reading around every
   query.  A schedule is the order in which the steps of the apply goroutine and of query goroutines complete;
   a step that its lock does not permit is not enabled (the run is None).
   locked = false is the same code without the lock discipline (the pinned commit). *)
From QV Require Import Base.Util.

Section Window.
  Variable E : Type.

  Record wst := { w_store : list E; w_mem : list E; w_pending : bool; w_writer : bool; w_readers : nat }.
  Definition winit (evs : list E) : wst :=
    {| w_store := evs; w_mem := evs; w_pending := false; w_writer := false; w_readers := 0 |}.

  Inductive wstep := WLock | WCompute (c : list E) | WPersist | WUnlock | RLock | RRead | RUnlock.

  (* what a query sees: (number of events the store holds, number of events the in-memory structures cover) *)
  Definition wobs := (nat * nat)%type.

  Definition wstep1 (locked : bool) (s : wst) (x : wstep) : option (wst * list wobs) :=
    match x with
    | WLock => if negb (w_writer s) && Nat.eqb (w_readers s) 0
               then Some ({| w_store := w_store s; w_mem := w_mem s; w_pending := w_pending s; w_writer := true; w_readers := w_readers s |}, [])
               else None
    | WCompute c => if (negb locked || w_writer s) && negb (w_pending s)
               then Some ({| w_store := w_store s; w_mem := w_mem s ++ c; w_pending := true; w_writer := w_writer s; w_readers := w_readers s |}, [])
               else None
    | WPersist => if w_pending s
               then Some ({| w_store := w_mem s; w_mem := w_mem s; w_pending := false; w_writer := w_writer s; w_readers := w_readers s |}, [])
               else None
    | WUnlock => if w_writer s && negb (w_pending s)
               then Some ({| w_store := w_store s; w_mem := w_mem s; w_pending := false; w_writer := false; w_readers := w_readers s |}, [])
               else None
    | RLock => if negb (w_writer s)
               then Some ({| w_store := w_store s; w_mem := w_mem s; w_pending := w_pending s; w_writer := false; w_readers := S (w_readers s) |}, [])
               else None
    | RRead => if negb locked || negb (Nat.eqb (w_readers s) 0)
               then Some (s, [(length (w_store s), length (w_mem s))])
               else None
    | RUnlock => match w_readers s with
                 | O => None
                 | S k => Some ({| w_store := w_store s; w_mem := w_mem s; w_pending := w_pending s; w_writer := w_writer s; w_readers := k |}, [])
                 end
    end.

  Fixpoint wrun (locked : bool) (s : wst) (sched : list wstep) : option (wst * list wobs) :=
    match sched with
    | [] => Some (s, [])
    | x :: r => match wstep1 locked s x with
                | None => None
                | Some (s1, o1) => match wrun locked s1 r with
                                   | None => None
                                   | Some (s2, o2) => Some (s2, o1 ++ o2)
                                   end
                end
    end.

  (* the first clause: applyAdd computes and persists under applyMu.Lock; the second is the RWMutex applyMu itself; the third:
     store.Mutate writes what the balloon computed *)
  Definition winv (s : wst) : Prop :=
    (w_pending s = true -> w_writer s = true) /\
    (w_readers s <> O -> w_writer s = false) /\
    (w_pending s = false -> w_mem s = w_store s).

  Lemma winv_init evs : winv (winit evs).
  Proof. repeat split; intros; try discriminate; congruence. Qed.

  Lemma wstep1_inv s x : winv s ->
    match wstep1 true s x with Some (s', o) => winv s' /\ Forall (fun ob => fst ob = snd ob) o | None => True end.
  Proof.
    unfold winv. destruct s as [st me pe wr rd]; cbn. intros (H1 & H2 & H3). destruct wr.
    - (* the writer holds the lock: there is no reader, so no query reads *)
      assert (rd = O) as -> by (destruct rd; [reflexivity|discriminate (H2 ltac:(discriminate))]).
      destruct x, pe; cbn; trivial.
      all: split; [repeat split; intros; try discriminate; auto|constructor].
    - (* nobody writes: nothing is pending, memory and store agree *)
      assert (pe = false) as -> by (destruct pe; [discriminate (H1 eq_refl)|reflexivity]). rewrite (H3 eq_refl) in *.
      destruct x, rd; cbn; trivial.
      (* RRead, the one step that observes, puts out the two lengths: one term twice since the rewriting with H3 *)
      all: split; [repeat split; intros; try discriminate; auto; congruence|repeat constructor].
  Qed.

  (* C10: every query in every schedule the lock permits sees the in-memory structures and the store at the same
     version: never a mix of before and after an insertion *)
  Theorem window_consistent sched : forall s s' obs, winv s -> wrun true s sched = Some (s', obs) ->
    winv s' /\ Forall (fun ob => fst ob = snd ob) obs.
  Proof.
    induction sched as [|x r IH]; intros s s' obs Hi Hr; cbn in Hr.
    - injection Hr as <- <-. split; [exact Hi|constructor].
    - pose proof (wstep1_inv s x Hi) as H1. destruct (wstep1 true s x) as [[s1 o1]|]; [|discriminate].
      destruct (wrun true s1 r) as [[s2 o2]|] eqn:H2; [|discriminate]. injection Hr as <- <-.
      destruct H1 as [Hi1 Ho1]. destruct (IH s1 s2 o2 Hi1 H2) as [Hi2 Ho2].
      split; [exact Hi2|]. apply Forall_app. split; assumption.
  Qed.

  (* without the lock discipline a query between "computed" and "persisted" sees a mixed state *)
  Theorem window_unlocked_refuted (e : E) :
    exists sched s' obs, wrun false (winit []) sched = Some (s', obs) /\ Exists (fun ob => fst ob <> snd ob) obs.
  Proof.
    exists [WCompute [e]; RRead; WPersist]. eexists. eexists. split; [reflexivity|].
    constructor. cbn. discriminate.
  Qed.

  (* and the lock discipline does not permit that schedule at all: the query waits *)
  Theorem window_query_waits evs c : wrun true (winit evs) [WLock; WCompute c; RLock] = None.
  Proof. reflexivity. Qed.
End Window.

(* Correspondence run: a case is an observed schedule with the observations the queries made (store size,
   in-memory size); the model must permit the schedule and predict them. *)
Definition wobs_eqb (a b : list (nat * nat)) : bool :=
  Nat.eqb (length a) (length b) && forallb (fun p => Nat.eqb (fst (fst p)) (fst (snd p)) && Nat.eqb (snd (fst p)) (snd (snd p))) (combine a b).

Definition wcase := (nat * list (wstep N) * list (nat * nat))%type.
Definition run_window_cases (cs : list wcase) : list N :=
  map fst (filter (fun kc => let '(k, (old, sched, obs)) := kc in
                     match wrun N true (winit N (map N.of_nat (seq 0 old))) sched with
                     | Some (_, o) => negb (wobs_eqb o obs)
                     | None => true
                     end)
                  (combine (map N.of_nat (seq 0 (length cs))) cs)).
