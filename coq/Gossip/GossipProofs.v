From Coq Require Import ZArith.
From QV Require Import Base.Util Base.Facts Gossip.Gossip.

Lemma send_ttl_lower ttl t : send_ttl ttl = Some t -> (0 <= t < ttl)%Z.
Proof. unfold send_ttl. destruct (ttl <=? 0)%Z eqn:Hle; [discriminate|]. apply Z.leb_gt in Hle. intros H. injection H as <-. lia. Qed.

Lemma send_ttl_dead ttl : (ttl <= 0)%Z -> send_ttl ttl = None.
Proof. intros H. unfold send_ttl. apply Z.leb_le in H. rewrite H. reflexivity. Qed.

(* C18, dissemination terminates: along ANY chain of agents, of any length, a message is forwarded at most
   max(0, initial TTL) times *)
Theorem hops_bounded fuel : forall ttl, (Z.of_nat (hops fuel ttl) <= Z.max 0 ttl)%Z.
Proof.
  induction fuel as [|f IH]; intros ttl; cbn [hops]; [lia|].
  destruct (send_ttl ttl) as [t|] eqn:Hs; [|lia].
  apply send_ttl_lower in Hs. specialize (IH t). lia.
Qed.

Lemma mem_In l x : existsb (N.eqb x) l = true <-> In x l.
Proof. apply existsb_eqb_In, N.eqb_eq. Qed.

Lemma exclude_spec l ex p : In p (exclude l ex) <-> In p l /\ ~ In p ex.
Proof.
  unfold exclude. rewrite filter_In, negb_true_iff, <- not_true_iff_false, mem_In. reflexivity.
Qed.

(* C18: an agent never routes a message to itself nor back to the peer named as its source, whatever the choice
   function, provided the choice is among the candidates (Shuffle + Take(1) picks a list element) *)
Theorem route_never_self t self src pick :
  (forall r c, c <> [] -> In (pick r c) c) ->
  forall d, In d (route t self src pick) -> d <> self /\ d <> src /\ exists r l, In (r, l) t /\ In d l.
Proof.
  intros Hpick d Hin. unfold route, each1 in Hin. apply in_flat_map in Hin. destruct Hin as [[r l] [Hrl Hd]].
  cbn [fst snd] in Hd. destruct (exclude l [src; self]) as [|c0 cs] eqn:Hex; [destruct Hd|].
  destruct Hd as [<-|[]].
  assert (Hc : In (pick r (c0 :: cs)) (exclude l [src; self])) by (rewrite Hex; apply Hpick; discriminate).
  apply exclude_spec in Hc. destruct Hc as [Hl Hnot].
  split; [intros Heq; apply Hnot; right; left; symmetry; exact Heq|].
  split; [intros Heq; apply Hnot; left; symmetry; exact Heq|]. exists r, l. split; assumption.
Qed.

Lemma process_In cache ds d : In d (process cache ds) <-> In d ds /\ ~ In d cache.
Proof.
  revert cache. induction ds as [|x ds IH]; intros cache; cbn [process]; [cbn [In]; tauto|].
  unfold was_processed. destruct (existsb (N.eqb x) cache) eqn:Hex; cbn [In]; rewrite IH; cbn [In].
  - apply mem_In in Hex. destruct (N.eq_dec x d) as [->|Hne]; tauto.
  - assert (Hx : ~ In x cache) by (rewrite <- mem_In, Hex; discriminate).
    destruct (N.eq_dec x d) as [->|Hne]; tauto.
Qed.

(* C18: tasks are created at most once per batch digest, whatever the number and order of deliveries *)
Theorem process_once cache ds : NoDup (process cache ds).
Proof.
  revert cache. induction ds as [|x ds IH]; intros cache; cbn [process]; [constructor|].
  unfold was_processed. destruct (existsb (N.eqb x) cache); [apply IH|].
  constructor; [|apply IH]. rewrite process_In. intros [_ Hn]. apply Hn. left. reflexivity.
Qed.

Theorem process_all_new cache ds d : In d ds -> ~ In d cache -> In d (process cache ds).
Proof. intros Hin Hnc. apply process_In. split; assumption. Qed.

(* Update replaces a listed name by itself: it appends a new name and does nothing else *)
Lemma plist_update_snoc l name : plist_update l name = if existsb (N.eqb name) l then l else l ++ [name].
Proof.
  induction l as [|y l IH]; cbn [plist_update existsb app]; [reflexivity|]. rewrite (N.eqb_sym name y).
  destruct (N.eqb_spec y name) as [->|_]; cbn [orb]; [reflexivity|]. rewrite IH. destruct (existsb _ l); reflexivity.
Qed.

Lemma plist_update_in l name x : In x (plist_update l name) <-> x = name \/ In x l.
Proof.
  rewrite plist_update_snoc. destruct (existsb (N.eqb name) l) eqn:He; [|rewrite in_app_iff; cbn [In]; intuition].
  apply mem_In in He. split; [auto|intros [->|Hx]; assumption].
Qed.

Lemma plist_update_nodup l name : NoDup l -> NoDup (plist_update l name).
Proof.
  intros Hnd. rewrite plist_update_snoc. destruct (existsb (N.eqb name) l) eqn:He; [exact Hnd|].
  apply NoDup_snoc; [exact Hnd|]. rewrite <- mem_In, He. discriminate.
Qed.

(* Delete removes the first match only: without NoDup a second entry for n would stay - the reason TopoOK exists *)
Lemma plist_delete_filter l n : NoDup l -> plist_delete l n = filter (fun y => negb (y =? n)) l.
Proof.
  induction l as [|y l IH]; intros Hnd; cbn [plist_delete filter]; [reflexivity|].
  inversion Hnd as [|? ? Hy Hl]; subst. destruct (N.eqb_spec y n) as [->|Hyn]; cbn [negb]; [|rewrite (IH Hl); reflexivity].
  symmetry. apply filter_all. intros x Hx. apply negb_true_iff, N.eqb_neq. intros ->. exact (Hy Hx).
Qed.

Lemma plist_delete_in l n x : NoDup l -> (In x (plist_delete l n) <-> In x l /\ x <> n).
Proof. intros Hnd. rewrite (plist_delete_filter l n Hnd), filter_In, negb_true_iff, N.eqb_neq. reflexivity. Qed.

Lemma plist_delete_nodup l name : NoDup l -> NoDup (plist_delete l name).
Proof. intros Hnd. rewrite (plist_delete_filter l name Hnd). apply NoDup_filter, Hnd. Qed.

Definition TopoOK (t : topology) : Prop := forall r l, In (r, l) t -> NoDup l.

Lemma TopoOK_nil : TopoOK [].
Proof. intros r l []. Qed.

Lemma TopoOK_cons r l t : TopoOK ((r, l) :: t) <-> NoDup l /\ TopoOK t.
Proof.
  split.
  - intros H. split; [exact (H r l (or_introl eq_refl))|]. intros r' l' Hin. exact (H r' l' (or_intror Hin)).
  - intros [Hl Ht] r' l' [[= <- <-]|Hin]; [exact Hl|exact (Ht r' l' Hin)].
Qed.

Theorem topo_update_ok t role name : TopoOK t -> TopoOK (topo_update t role name).
Proof.
  induction t as [|[r l] rest IH]; cbn [topo_update].
  - intros _. apply TopoOK_cons. split; [exact (plist_update_nodup [] name (NoDup_nil N))|exact TopoOK_nil].
  - rewrite TopoOK_cons. intros [Hl Hrest]. destruct (r =? role); apply TopoOK_cons.
    + split; [apply plist_update_nodup; exact Hl|exact Hrest].
    + split; [exact Hl|exact (IH Hrest)].
Qed.

Theorem topo_delete_ok t role name : TopoOK t -> TopoOK (topo_delete t role name).
Proof.
  induction t as [|[r l] rest IH]; cbn [topo_delete]; [intros _; exact TopoOK_nil|].
  rewrite TopoOK_cons. intros [Hl Hrest]. destruct (r =? role); apply TopoOK_cons.
  - split; [apply plist_delete_nodup; exact Hl|exact Hrest].
  - split; [exact Hl|exact (IH Hrest)].
Qed.
