(* BatchProcessor with several task factories and a task manager that may refuse a task (gossip/processor.go: the loop
   over d.tf calling d.a.Tasks.Add and only logging a refusal).  The batch is marked processed BEFORE any task is created
   (wasProcessed is a test-and-set) and a task is created (t.New) before the task manager is asked, so the tasks created
   do not depend on its answers: [process_tm] never consults [accept], and each factory creates at most one task per batch
   over any sequence of deliveries.  [accept d k n] - does the manager accept the task of factory k for the n-th handled
   delivery - matters for [process_late] only: marking the batch only after every task was accepted (seeded change
   C18-10) is refuted. *)
From Coq Require Import FinFun.
From QV Require Import Base.Util Base.Facts Gossip.Gossip Gossip.GossipProofs.

Section Tasks.
  Variable nf : nat.                          (* number of task factories *)
  Variable accept : N -> nat -> nat -> bool.  (* task manager: batch digest, factory, delivery number *)

  (* tasks CREATED (t.New is called before Tasks.Add decides), as (digest, factory) *)
  Definition tasks_for (d : N) : list (N * nat) := map (fun k => (d, k)) (seq 0 nf).

  Fixpoint process_tm (cache : list N) (n : nat) (deliveries : list N) : list (N * nat) :=
    match deliveries with
    | [] => []
    | d :: r => let '(seen, cache') := was_processed cache d in
                if seen then process_tm cache' (S n) r else tasks_for d ++ process_tm cache' (S n) r
    end.

  Lemma process_tm_flat cache n ds : process_tm cache n ds = flat_map tasks_for (process cache ds).
  Proof.
    revert cache n. induction ds as [|d r IH]; intros cache n; cbn [process_tm process]; [reflexivity|].
    destruct (was_processed cache d) as [seen cache']. destruct seen; [apply IH|].
    rewrite IH. reflexivity.
  Qed.

  Lemma tasks_for_in d x : In x (tasks_for d) -> fst x = d.
  Proof. intros Hin. apply in_map_iff in Hin. destruct Hin as [k [<- _]]. reflexivity. Qed.

  Lemma tasks_for_nodup d : NoDup (tasks_for d).
  Proof.
    apply Injective_map_NoDup; [|apply seq_NoDup].
    intros a b Hab. injection Hab as Hab. exact Hab.
  Qed.

  Lemma flat_tasks_nodup (l : list N) : NoDup l -> NoDup (flat_map tasks_for l).
  Proof.
    induction 1 as [|d l Hnotin Hnd IH]; cbn [flat_map]; [constructor|].
    apply NoDup_app. split; [apply tasks_for_nodup|]. split; [exact IH|].
    intros x Hx Hx'. apply in_flat_map in Hx'. destruct Hx' as [d' [Hd' Hin']].
    apply tasks_for_in in Hx. apply tasks_for_in in Hin'. rewrite Hx in Hin'. subst d'. exact (Hnotin Hd').
  Qed.

  Theorem tasks_at_most_once cache {n} ds : NoDup (process_tm cache n ds).
  Proof. rewrite process_tm_flat. apply flat_tasks_nodup. apply process_once. Qed.
End Tasks.

(* seeded change C18-10: the batch is marked only if the task manager accepted every task *)
Section Late.
  Variable nf : nat.
  Variable accept : N -> nat -> nat -> bool.
  Fixpoint process_late (cache : list N) (n : nat) (deliveries : list N) : list (N * nat) :=
    match deliveries with
    | [] => []
    | d :: r =>
        if existsb (N.eqb d) cache then process_late cache (S n) r
        else let cache' := if forallb (fun k => accept d k n) (seq 0 nf) then d :: cache else cache in
             tasks_for nf d ++ process_late cache' (S n) r
    end.
End Late.

(* two factories, the manager refuses the second one's task: the same batch delivered twice runs factory 0 twice *)
Example process_late_runs_a_task_twice :
  process_late 2 (fun _ k _ => Nat.eqb k 0) [] 0 [7; 7]%N = [(7%N, 0%nat); (7%N, 1%nat); (7%N, 0%nat); (7%N, 1%nat)] /\
  process_tm 2 [] 0 [7; 7]%N = [(7%N, 0%nat); (7%N, 1%nat)].
Proof. split; reflexivity. Qed.
