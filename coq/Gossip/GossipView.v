(* C18, last sentence: "the agent's view of the network stays consistent".  gossip/delegate.go applies memberlist's
   notifications (NotifyJoin / NotifyUpdate -> Topology.Update, NotifyLeave -> Topology.Delete) one after the other.  [joined] is the
   specification (the oracle the harness applies to the real delegate); the list manipulation of topology.go / peer.go
   computes it. *)
From QV Require Import Base.Util Base.Facts Gossip.Gossip Gossip.GossipProofs.

Inductive mev := MJoin (role name : N) | MLeave (role name : N).     (* an update is a join *)

Definition topo_step (t : topology) (e : mev) : topology :=
  match e with MJoin r n => topo_update t r n | MLeave r n => topo_delete t r n end.
Definition members (t : topology) (role : N) : list N := match topo_get t role with Some l => l | None => [] end.

Definition spec_step (P : N -> N -> bool) (e : mev) : N -> N -> bool :=
  fun r n => match e with
             | MJoin r' n' => ((r' =? r) && (n' =? n)) || P r n
             | MLeave r' n' => negb ((r' =? r) && (n' =? n)) && P r n
             end.
Definition joined (evs : list mev) : N -> N -> bool := fold_left spec_step evs (fun _ _ => false).

Lemma members_cons r0 l0 t r : members ((r0, l0) :: t) r = if r =? r0 then l0 else members t r.
Proof. unfold members, topo_get. cbn [assoc]. destruct (r =? r0); reflexivity. Qed.

Lemma members_update t r n r' :
  members (topo_update t r n) r' = if r' =? r then plist_update (members t r') n else members t r'.
Proof.
  induction t as [|[r0 l0] rest IH]; cbn [topo_update]; [rewrite members_cons; destruct (r' =? r); reflexivity|].
  destruct (N.eqb_spec r0 r) as [->|H0]; rewrite !members_cons; [destruct (r' =? r); reflexivity|].
  rewrite IH. destruct (N.eqb_spec r' r0) as [->|H1]; [|reflexivity]. apply N.eqb_neq in H0. rewrite H0. reflexivity.
Qed.

Lemma members_delete t r n r' :
  members (topo_delete t r n) r' = if r' =? r then plist_delete (members t r') n else members t r'.
Proof.
  induction t as [|[r0 l0] rest IH]; cbn [topo_delete]; [destruct (r' =? r); reflexivity|].
  destruct (N.eqb_spec r0 r) as [->|H0]; rewrite !members_cons; [destruct (r' =? r); reflexivity|].
  rewrite IH. destruct (N.eqb_spec r' r0) as [->|H1]; [|reflexivity]. apply N.eqb_neq in H0. rewrite H0. reflexivity.
Qed.

Lemma members_nodup t r : TopoOK t -> NoDup (members t r).
Proof.
  intros Hok. unfold members, topo_get. destruct (assoc N.eqb r t) as [l|] eqn:Ha; [|constructor].
  exact (Hok r l (assoc_Some_In N.eqb N.eqb_eq r t l Ha)).
Qed.

Lemma topo_step_ok t e : TopoOK t -> TopoOK (topo_step t e).
Proof. destruct e; [apply topo_update_ok|apply topo_delete_ok]. Qed.

Definition topo_run (t : topology) (evs : list mev) : topology := fold_left topo_step evs t.
Definition agree (t : topology) (P : N -> N -> bool) : Prop := forall r n, In n (members t r) <-> P r n = true.

Lemma agree_step t P e : TopoOK t -> agree t P -> agree (topo_step t e) (spec_step P e).
Proof.
  intros Hok Ha r n. destruct e as [r' n'|r' n']; cbn [topo_step spec_step].
  - rewrite members_update, (N.eqb_sym r' r). destruct (r =? r'); cbn [andb orb]; [|exact (Ha r n)].
    rewrite plist_update_in, (Ha r n), (N.eqb_sym n' n), orb_true_iff, N.eqb_eq. reflexivity.
  - rewrite members_delete, (N.eqb_sym r' r). destruct (r =? r'); cbn [andb negb]; [|exact (Ha r n)].
    rewrite (plist_delete_in _ _ _ (members_nodup t r Hok)), (Ha r n), (N.eqb_sym n' n), andb_true_iff, negb_true_iff, N.eqb_neq.
    apply and_comm.
Qed.

(* the simulation, from any view t that agrees with any P: each notification keeps TopoOK and moves t and P together *)
Theorem view_consistent evs : forall t P, TopoOK t -> agree t P ->
  TopoOK (topo_run t evs) /\ agree (topo_run t evs) (fold_left spec_step evs P).
Proof.
  induction evs as [|e evs IH]; intros t P Hok Ha; cbn [topo_run fold_left]; [split; assumption|].
  apply IH; [apply topo_step_ok; exact Hok|apply agree_step; assumption].
Qed.

Lemma agree_empty : agree [] (fun _ _ => false).
Proof. intros r n. split; [intros []|discriminate]. Qed.

(* C18: after ANY sequence of notifications the peers listed for a role are exactly those that joined and have not left
   since, and none is listed twice *)
Corollary view_from_empty evs r n :
  NoDup (members (topo_run [] evs) r) /\ (In n (members (topo_run [] evs) r) <-> joined evs r n = true).
Proof.
  destruct (view_consistent evs [] _ TopoOK_nil agree_empty) as [Hok Ha].
  split; [apply members_nodup; exact Hok|exact (Ha r n)].
Qed.
