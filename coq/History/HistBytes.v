(* The witness against the verifier without the length check (the pinned commit; repaired by fix 10a81c4): on a
   concrete two-event log, at the SHA-256 instance the correspondence runs execute, that verifier (entries hashed as
   given) ACCEPTS the genuine proof for (1,1) with its two entries altered to 31 and 33 bytes; the verifier with the
   length check rejects it.  This is the failing input that was replayed on the Go code (DESIGN 7.1).
   The statement it refutes for the pinned verifier is C03_reject_altered_entry at byte level: the premise H_inj of that
   theorem is exactly what fails here (two different inputs, one byte string - not a collision of SHA-256). *)
From Coq Require Import Uint63 ZArith FMapPositive.
From QV Require Import Base.Util Base.HashSig Base.Layout Base.Sha256 Base.Sha256Len Base.ShaInst History.HistModel History.HistChecked
  Run.HistRun.

Definition evs2 : list bytes := [sha256 [1%uint63]; sha256 [2%uint63]].
Definition lens (p : list (pos * bytes)) : list nat := map (fun kv => length (snd kv)) p.

Fixpoint nats_eqb (a b : list nat) : bool :=
  match a, b with
  | [], [] => true
  | x :: a', y :: b' => Nat.eqb x y && nats_eqb a' b'
  | _, _ => false
  end.

(* the whole scenario as one closed boolean, evaluated by the kernel *)
Definition shift_scenario : bool :=
  match add_all (PositiveMap.empty bytes) 0 evs2 with
  | Some (s, [r0; r1]) =>
      match prove_consistency bytes bytes bytes Hsha (hget s) 1 1 with
      | Some path =>
          let path' := alt_path (AltShift 0) path in
          nats_eqb (lens (canon path)) [32; 32]%nat &&       (* the genuine proof: two 32-byte entries ... *)
          nats_eqb (lens path') [31; 33]%nat &&               (* ... altered to 31 and 33 bytes *)
          (verdict_incr path 1 1 r1 r1 =? 0)%N &&             (* the genuine proof is accepted by both verifiers *)
          (verdict_incr_unchecked path 1 1 r1 r1 =? 0)%N &&
          (verdict_incr_unchecked path' 1 1 r1 r1 =? 0)%N &&  (* the altered proof is ACCEPTED by the pinned verifier *)
          (verdict_incr path' 1 1 r1 r1 =? 1)%N               (* and rejected once entry lengths are checked *)
      | None => false
      end
  | _ => false
  end.

Theorem unchecked_lengths_accept_altered : shift_scenario = true.
Proof. vm_compute. reflexivity. Qed.

Lemma Hsha_len32 (x : hin bytes bytes bytes) : len32 (Hsha x) = true.
Proof. unfold len32, Hsha. rewrite sha256_length. reflexivity. Qed.

(* With the length check every digest the verifier returns and every child of every inner or partial node it hashes
   has exactly 32 bytes - for EVERY audit path the server sends and every pruned tree. *)
Theorem checked_sha_inputs_wf (c : cache bytes) (o : op bytes) r tr :
  interp_tr bytes bytes bytes Hsha (checked len32 c) o = Some (r, tr) ->
  len32 r = true /\ Forall (fun x => wf_children bytes bytes bytes len32 x = true) tr.
Proof. exact (checked_inputs_wf bytes bytes bytes Hsha len32 Hsha_len32 c o r tr). Qed.
