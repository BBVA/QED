(* Why the version guard of DigestVerify (ActualVersion <= QueryVersion) cannot be left to the history verifier
   (seeded change C02-9 "moved" it there as an in-tree check): for an index BEYOND the version - but still inside the tree's
   capacity - pruneToVerify turns right at a partial node, which discards the branch holding the leaf.  The recomputed root
   then does not depend on the digest at all: whatever verifies for one digest verifies for every digest. *)
From QV Require Import Base.Util Base.Facts Base.HashSig History.HistModel.

Section Guard.
  Variables D E V : Type.
  Variable H : hin D E V -> D.

  (* the pruned tree does not even contain the digest *)
  Lemma verify_go_beyond (h : nat) : forall i idx v (e e' : E),
    i <= v -> v < idx -> idx < i + pow2 h -> verify_go idx v e i h = verify_go idx v e' i h.
  Proof.
    induction h as [|h IH]; intros i idx v e e' Hiv Hvi Hhi.
    - rewrite pow2_0 in Hhi. lia.
    - rewrite pow2_S in Hhi. cbn [verify_go].
      destruct (N.ltb_spec idx (i + pow2 h)); destruct (N.ltb_spec v (i + pow2 h)).
      + rewrite (IH i idx v e e') by lia. reflexivity.
      + (* idx in the left half, v in the right: excluded by v < idx *) lia.
      + (* the partial node: the right branch - the only place the digest enters - is discarded *)
        reflexivity.
      + rewrite (IH (i + pow2 h) idx v e e') by lia. reflexivity.
  Qed.

  Theorem membership_root_ignores_digest_beyond_version (path : cache D) (idx v : N) (e e' : E) :
    v < idx -> idx < pow2 (bitlen v) ->
    membership_root D E V H path idx v e = membership_root D E V H path idx v e'.
  Proof.
    intros Hv Hcap. unfold membership_root, pruneToVerify.
    rewrite (verify_go_beyond (bitlen v) 0 idx v e e'); [reflexivity|lia|exact Hv|exact Hcap].
  Qed.
End Guard.
