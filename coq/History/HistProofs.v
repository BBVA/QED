(* Six of the seven pruning functions (the provers' and the verifiers') produce the tree of HistSpec with some
   subtrees replaced by cache reads ([pruned]: the lemmas [X_go_pruned]; for pruneToFind the equation [find_go_findc]); what
   a visitor computes on such a tree is settled once ([interp_node], [interp_sound]), and a pruning function only
   contributes what its tree looks like: where it reads, what it collects.  Each pruneToX v is [X_go .. 0 (bitlen v)]
   by definition (pruneToVerifyIncrementalStart s is [vstart_go s 0 (bitlen s)]); the lemmas speak of the recursion
   [X_go], so a search for pruneToX finds none of them, and the theorems unfold pruneToX first.  Insertion
   (pruneToInsert, whose tree also writes) is treated directly ([insert_correct]).  pruneToVerifyIncrementalStart is
   only ever run on what the end tree reads: [vstart_node], the one lemma the theorems use about its tree, takes that
   premise and goes by induction on the function instead of through [interp_node]. *)
From QV Require Import Base.Util Base.Facts Base.HashSig History.HistModel History.HistSpec.

Lemma pow2_eq h : pow2 h = 2 ^ N.of_nat h.
Proof. exact (pow2_pow h). Qed.

Lemma inr_true x i h : inr x i h = true <-> i <= x /\ x < i + pow2 h.
Proof. unfold inr. rewrite andb_true_iff, N.leb_le, N.ltb_lt. reflexivity. Qed.
Lemma inr_false x i h : inr x i h = false <-> x < i \/ i + pow2 h <= x.
Proof. unfold inr. rewrite andb_false_iff, N.leb_gt, N.ltb_ge. reflexivity. Qed.

Lemma inr_left x i h : inr x i (S h) = true -> x < i + pow2 h -> inr x i h = true.
Proof. rewrite !inr_true. tauto. Qed.
Lemma inr_right x i h : inr x i (S h) = true -> i + pow2 h <= x -> inr x (i + pow2 h) h = true.
Proof. rewrite !inr_true, pow2_S. lia. Qed.
Lemma inr_out_halves x i h : inr x i (S h) = false -> inr x i h = false /\ inr x (i + pow2 h) h = false.
Proof. rewrite !inr_false, pow2_S. lia. Qed.
Lemma inr_leaf x i : inr x i O = true -> x = i.
Proof. rewrite inr_true, pow2_0. lia. Qed.
Lemma inr_root x v : x <= v -> inr x 0 (bitlen v) = true.
Proof. intros Hx. apply inr_true. split; [apply N.le_0_l|exact (N.le_lt_trans _ _ _ Hx (bitlen_gt v))]. Qed.

Lemma pos_eqb_eq (a b : pos) : pos_eqb a b = true <-> a = b.
Proof.
  destruct a as [i h], b as [j k]. unfold pos_eqb. cbn [fst snd].
  rewrite andb_true_iff, N.eqb_eq, Nat.eqb_eq. symmetry. apply pair_equal_spec.
Qed.

Lemma assoc_none {B} k (l : list (pos * B)) : ~ In k (map fst l) -> assoc pos_eqb k l = None.
Proof. apply (assoc_None pos_eqb pos_eqb_eq). Qed.

Lemma path_get_map {B} (f : pos -> B) l k : In k l -> path_get (map (fun p => (p, f p)) l) k = Some (f k).
Proof.
  intros Hin. unfold path_get. destruct (assoc pos_eqb k _) as [d|] eqn:Has.
  - apply (assoc_Some_In pos_eqb pos_eqb_eq), in_rev, in_map_iff in Has. destruct Has as (q & Hq & _).
    injection Hq as <- <-. reflexivity.
  - apply (assoc_None pos_eqb pos_eqb_eq) in Has. rewrite map_rev, <- in_rev, map_map, map_id in Has. destruct (Has Hin).
Qed.

(* the positions the code visits are aligned *)
Definition aligned (i : N) (h : nat) : Prop := exists k, i = k * pow2 h.
Lemma aligned_left i h : aligned i (S h) -> aligned i h.
Proof. intros [k ->]. exists (2 * k). rewrite pow2_S. lia. Qed.
Lemma aligned_right i h : aligned i (S h) -> aligned (i + pow2 h) h.
Proof. intros [k ->]. exists (2 * k + 1). rewrite pow2_S. lia. Qed.
Lemma aligned_0 h : aligned 0 h.
Proof. exists 0. lia. Qed.

Section Proofs.
  Variables D E V : Type.
  Variable H : hin D E V -> D.

  Notation node := (node D E V H).
  Notation root := (root D E V H).
  Notation fz := (fz D E V H).
  Notation interp := (interp D E V H).
  Notation collect := (collect D E V H).
  Notation op := (op E).

  Lemma node_part (A : N -> E) v i h :
    v < i + pow2 h -> node A v i (S h) = H (HPart (node A v i h) i (S h)).
  Proof. intros Hlt. cbn [HistSpec.node]. apply N.ltb_lt in Hlt. rewrite Hlt. reflexivity. Qed.

  Lemma node_full (A : N -> E) v i h :
    i + pow2 h <= v -> node A v i (S h) = H (HFull (node A v i h) (node A v (i + pow2 h) h) i (S h)).
  Proof. intros Hge. cbn [HistSpec.node]. apply N.ltb_ge in Hge. rewrite Hge. reflexivity. Qed.

  Lemma node_ext (A B : N -> E) v i h :
    (forall k, i <= k -> k < i + pow2 h -> k <= v -> A k = B k) ->
    i <= v -> node A v i h = node B v i h.
  Proof.
    revert i. induction h as [|h IH]; intros i Hag Hi.
    - cbn [HistSpec.node]. rewrite (Hag i); [reflexivity|lia| rewrite pow2_0; lia |lia].
    - rewrite pow2_S in Hag.
      assert (Hl : node A v i h = node B v i h) by (apply IH; [intros k ? ? ?; apply Hag; lia|exact Hi]).
      destruct (N.lt_ge_cases v (i + pow2 h)) as [Hc|Hc].
      + rewrite !node_part, Hl by exact Hc. reflexivity.
      + rewrite !node_full, Hl by exact Hc. rewrite (IH (i + pow2 h)); [reflexivity| |exact Hc].
        intros k ? ? ?. apply Hag; lia.
  Qed.

  Lemma frozen_stable (A : N -> E) v v' i h :
    i + pow2 h <= v + 1 -> i + pow2 h <= v' + 1 -> node A v i h = node A v' i h.
  Proof.
    revert i. induction h as [|h IH]; intros i H1 H2; [reflexivity|].
    rewrite pow2_S in H1, H2. pose proof (pow2_pos h) as Hp.
    rewrite !node_full by lia. rewrite (IH i), (IH (i + pow2 h)); [reflexivity|lia|lia|lia|lia].
  Qed.

  Lemma root_prefix (A B : N -> E) v : (forall k, k <= v -> A k = B k) -> root A v = root B v.
  Proof. intros Hag. unfold HistSpec.root. apply node_ext; [|lia]. intros k _ _ Hk. apply Hag. exact Hk. Qed.

  Lemma frozen_fz (A : N -> E) v i h : i + pow2 h <= v + 1 -> node A v i h = fz A i h.
  Proof.
    intros Hf. unfold HistSpec.fz. apply frozen_stable; [exact Hf|]. lia.
  Qed.

  Fixpoint gets (o : op) : list pos :=
    match o with
    | OGet i h => [(i, h)]
    | OLeaf _ _ => []
    | OInner _ _ l r => gets l ++ gets r
    | OPartial _ _ l => gets l
    | OPut o | OMutate o | OCollect o => gets o
    end.

  Fixpoint leaves (o : op) : list (N * option E) :=
    match o with
    | OGet _ _ => []
    | OLeaf i x => [(i, x)]
    | OInner _ _ l r => leaves l ++ leaves r
    | OPartial _ _ l => leaves l
    | OPut o | OMutate o | OCollect o => leaves o
    end.

  Fixpoint ckeys (o : op) : list pos :=
    match o with
    | OLeaf _ _ | OGet _ _ => []
    | OInner _ _ l r => ckeys l ++ ckeys r
    | OPartial _ _ l => ckeys l
    | OPut o | OMutate o => ckeys o
    | OCollect o => ckeys o ++ [op_pos o]
    end.

  (* G constrains the positions read.  A collected subtree holds no leaf: the provers collect cached nodes and
     subtrees away from the queried leaf. *)
  Inductive pruned (G : pos -> Prop) (v : N) : N -> nat -> op -> Prop :=
  | pr_get i h : G (i, h) -> pruned G v i h (OGet i h)
  | pr_leaf i x : pruned G v i O (OLeaf i x)
  | pr_part i h l : v < i + pow2 h -> pruned G v i h l -> pruned G v i (S h) (OPartial i (S h) l)
  | pr_full i h l r : i + pow2 h <= v -> pruned G v i h l -> pruned G v (i + pow2 h) h r ->
                      pruned G v i (S h) (OInner i (S h) l r)
  | pr_collect i h o : pruned G v i h o -> leaves o = [] -> pruned G v i h (OCollect o).

  Lemma pruned_pos G v i h o : pruned G v i h o -> op_pos o = (i, h).
  Proof. induction 1; cbn [op_pos]; auto. Qed.

  Lemma pruned_gets G v i h o : pruned G v i h o -> forall p, In p (gets o) -> G p.
  Proof.
    induction 1; cbn [gets]; intros p Hin; auto; try contradiction.
    - destruct Hin as [<-|[]]. assumption.
    - apply in_app_or in Hin. destruct Hin; auto.
  Qed.

  Lemma pruned_of_gets (G G' : pos -> Prop) v i h o :
    pruned G v i h o -> (forall p, In p (gets o) -> G' p) -> pruned G' v i h o.
  Proof.
    induction 1 as [i h|i x|i h l Hlt Hl IHl|i h l r Hge Hl IHl Hr IHr|i h o Ho IH Hlv];
      cbn [gets]; intros HG; constructor; auto.
    - apply HG. left. reflexivity.
    - apply IHl. intros p Hin. apply HG, in_or_app. left. exact Hin.
    - apply IHr. intros p Hin. apply HG, in_or_app. right. exact Hin.
  Qed.

  Definition nodeP (A : N -> E) (v : N) (p : pos) : D := node A v (fst p) (snd p).

  (* a property of the cache, not an action: c answers position p with the authentic node of version v *)
  Definition reads (A : N -> E) (c : cache D) (v : N) (p : pos) : Prop := c p = Some (nodeP A v p).

  Lemma interp_node (A : N -> E) (c : cache D) v o i h :
    pruned (reads A c v) v i h o ->
    (forall j x, In (j, x) (leaves o) -> x = Some (A j)) ->
    interp c o = Some (node A v i h).
  Proof.
    induction 1 as [i h Hg|i x|i h l Hlt Hl IHl|i h l r Hge Hl IHl Hr IHr|i h o Ho IH Hlv];
      cbn [leaves HistModel.interp]; intros HL.
    - exact Hg.
    - rewrite (HL i x) by (left; reflexivity). reflexivity.
    - rewrite IHl, node_part by assumption. reflexivity.
    - rewrite IHl, IHr, node_full; [reflexivity|exact Hge| |]; intros j x Hin; apply HL, in_or_app; auto.
    - apply IH. exact HL.
  Qed.

  (* the audit visitor on a tree whose reads are authentic: no panic (interp_node does not say so: a prover's leaf is
     a dummy), and the authentic node at every key *)
  Lemma collect_pruned (A : N -> E) (c : cache D) v o i h :
    pruned (reads A c v) v i h o ->
    interp c o <> None /\ collect c o = map (fun p => (p, nodeP A v p)) (ckeys o).
  Proof.
    induction 1 as [i h Hg|i x|i h l Hlt Hl [Nl El]|i h l r Hge Hl [Nl El] Hr [Nr Er]|i h o Ho [No Eo] Hlv];
      cbn [HistModel.interp HistModel.collect ckeys].
    - split; [rewrite Hg; discriminate|reflexivity].
    - split; [discriminate|reflexivity].
    - split; [|exact El]. destruct (interp c l); [discriminate|exact Nl].
    - split; [|rewrite El, Er, map_app; reflexivity].
      destruct (interp c l); [|exact Nl]. destruct (interp c r); [discriminate|exact Nr].
    - split; [exact No|]. rewrite Eo, (interp_node A c v o i h Ho) by (rewrite Hlv; intros ? ? []).
      rewrite map_app, (pruned_pos _ _ _ _ _ Ho). reflexivity.
  Qed.

  (* [off_path x p]: p is a leaf, or it lies off the path from the root to leaf x.  A tree that reads only such
     positions is expanded along that path; the trees of the provers and of pruneToVerifyIncrementalEnd are expanded
     along the path to their version (pruneToVerify's is not: it follows the index and may read the subtree that holds
     the version).  Such a tree reads complete (frozen) nodes only ([pruned_frozen]); and if it also fits a version v
     that lies in the range of its subtree, then v = x ([pruned_version]). *)
  Definition off_path (x : N) (p : pos) : Prop := inr x (fst p) (snd p) = true -> snd p = O.
  Lemma off_path_leaf x j : off_path x (j, O).
  Proof. intros _. reflexivity. Qed.
  Lemma off_path_out x j k : inr x j k = false -> off_path x (j, k).
  Proof. intros Hf Ht. cbn [fst snd] in Ht. congruence. Qed.
  Lemma off_path_neither s x j k : inr s j k || inr x j k = false -> off_path x (j, k).
  Proof. intros Hn. apply off_path_out. apply orb_false_iff in Hn. apply Hn. Qed.

  Lemma pruned_frozen v o : forall i h,
    pruned (off_path v) v i h o -> aligned i h -> i <= v ->
    forall j k, In (j, k) (gets o) -> aligned j k /\ j + pow2 k <= v + 1.
  Proof.
    induction 1 as [i h Hg|i y|i h l Hlt Hl IHl|i h l r Hge Hl IHl Hr IHr|i h o Ho IH Hlv]; cbn [gets]; intros Ha Hi j k Hp.
    - (* a read: a leaf at or below v, or a subtree off the path, which ends before v *)
      destruct Hp as [Hp|[]]. injection Hp as <- <-. split; [exact Ha|]. destruct (inr v i h) eqn:Hin.
      + rewrite (Hg Hin : h = O), pow2_0. lia.
      + apply inr_false in Hin. lia.
    - destruct Hp.
    - exact (IHl (aligned_left _ _ Ha) Hi j k Hp).
    - apply in_app_or in Hp. destruct Hp as [Hp|Hp].
      + exact (IHl (aligned_left _ _ Ha) Hi j k Hp).
      + exact (IHr (aligned_right _ _ Ha) Hge j k Hp).
    - exact (IH Ha Hi j k Hp).
  Qed.

  Lemma pruned_version G x v o : forall i h,
    pruned (off_path x) x i h o -> pruned G v i h o -> inr x i h = true -> i <= v -> v < i + pow2 h -> v = x.
  Proof.
    intros i h Hx. revert v.
    induction Hx as [i h Hg|i y|i h l Hlt Hl IHl|i h l r Hge Hl IHl Hr IHr|i h o Ho IH Hlv];
      intros v Hv Hin Hi Hlt'.
    - pose proof (Hg Hin : h = O). subst h. rewrite pow2_0 in Hlt'. rewrite (inr_leaf _ _ Hin). lia.
    - rewrite pow2_0 in Hlt'. rewrite (inr_leaf _ _ Hin). lia.
    - inversion Hv; subst. apply IHl; auto. exact (inr_left _ _ _ Hin Hlt).
    - inversion Hv; subst. rewrite pow2_S in Hlt'. apply IHr; auto; [exact (inr_right _ _ _ Hin Hge)|lia].
    - inversion Hv; subst. apply IH; assumption.
  Qed.

  Definition StoreOK (A : N -> E) (c : cache D) (vs : N) : Prop :=
    forall i h, aligned i h -> i + pow2 h <= vs + 1 -> c (i, h) = Some (fz A i h).

  Lemma store_reads (A : N -> E) (st : cache D) vs v o i h :
    StoreOK A st vs -> v <= vs ->
    pruned (off_path v) v i h o -> aligned i h -> i <= v ->
    forall p, In p (gets o) -> reads A st v p.
  Proof.
    intros Hst Hv Hp Ha Hi [j k] Hin. destruct (pruned_frozen v o i h Hp Ha Hi j k Hin) as [Haj Hf].
    unfold reads, nodeP. cbn [fst snd]. rewrite (frozen_fz A v j k Hf). apply Hst; [exact Haj|lia].
  Qed.

  Lemma prover_path (A : N -> E) (st : cache D) vs v o i h :
    StoreOK A st vs -> v <= vs ->
    pruned (off_path v) v i h o -> aligned i h -> i <= v ->
    interp st o <> None /\ collect st o = map (fun p => (p, nodeP A v p)) (ckeys o).
  Proof.
    intros Hst Hv Hp Ha Hi. apply (collect_pruned A st v o i h), (pruned_of_gets _ _ _ _ _ _ Hp).
    exact (store_reads A st vs v o i h Hst Hv Hp Ha Hi).
  Qed.

  Lemma verifier_node G (A : N -> E) (c : cache D) v o i h :
    pruned G v i h o -> (forall p, In p (gets o) -> reads A c v p) ->
    (forall j x, In (j, x) (leaves o) -> x = Some (A j)) ->
    interp c o = Some (node A v i h).
  Proof. intros Hp Hg. apply interp_node. exact (pruned_of_gets G _ _ _ _ _ Hp Hg). Qed.

  Lemma verify_go_pruned idx v (e : E) h : forall i, pruned (fun _ => True) v i h (verify_go idx v e i h).
  Proof.
    induction h as [|h IH]; intros i; cbn [verify_go]; [apply pr_leaf|].
    destruct (idx <? i + pow2 h); destruct (N.ltb_spec v (i + pow2 h)) as [Hv|Hv].
    - apply pr_part; [exact Hv|apply IH].
    - apply pr_full; [exact Hv|apply IH|apply pr_get; exact I].
    - apply pr_part; [exact Hv|apply pr_get; exact I].
    - apply pr_full; [exact Hv|apply pr_get; exact I|apply IH].
  Qed.

  Lemma verify_go_leaves idx v (e : E) h : forall i,
    inr idx i h = true -> idx <= v -> leaves (verify_go idx v e i h) = [(idx, Some e)].
  Proof.
    induction h as [|h IH]; intros i Hin Hv; cbn [verify_go].
    - rewrite (inr_leaf _ _ Hin). reflexivity.
    - destruct (N.ltb_spec idx (i + pow2 h)) as [Hi|Hi].
      + destruct (v <? i + pow2 h); cbn [leaves]; rewrite ?app_nil_r; exact (IH i (inr_left _ _ _ Hin Hi) Hv).
      + destruct (N.ltb_spec v (i + pow2 h)); [lia|]. exact (IH (i + pow2 h) (inr_right _ _ _ Hin Hi) Hv).
  Qed.

  Lemma verify_go_node (A : N -> E) (c : cache D) idx v i h :
    inr idx i h = true -> idx <= v -> (forall p, In p (gets (verify_go idx v (A idx) i h)) -> reads A c v p) ->
    interp c (verify_go idx v (A idx) i h) = Some (node A v i h).
  Proof.
    intros Hin Hle Hc. apply (verifier_node _ A _ v _ _ _ (verify_go_pruned idx v (A idx) h i) Hc).
    rewrite (verify_go_leaves idx v (A idx) h i Hin Hle).
    intros j x [Hjx|[]]. injection Hjx as <- <-. reflexivity.
  Qed.

  (* at once what pruneToVerifyIncrementalEnd reads ([vend_go_gets]) and what pruneToCheckConsistency emits
     ([checkc_go_keys]): the prover emits exactly what the end verifier reads *)
  Fixpoint ereads (s e i : N) (h : nat) : list pos :=
    if negb (inr s i h || inr e i h) then [(i, h)] else
    match h with
    | O => [(i, O)]
    | S h' => let ri := i + pow2 h' in
              ereads s e i h' ++ (if e <? ri then [] else ereads s e ri h')
    end.

  Lemma ereads_out s e i h : inr s i h || inr e i h = false -> ereads s e i h = [(i, h)].
  Proof. intros Hn. destruct h; cbn [ereads]; rewrite Hn; reflexivity. Qed.

  Lemma vend_go_pruned s e h : forall i, pruned (off_path e) e i h (@vend_go E s e i h).
  Proof.
    induction h as [|h IH]; intros i; cbn [vend_go]; destruct (inr s i _ || inr e i _) eqn:Hin; cbn [negb].
    - constructor. apply off_path_leaf.
    - constructor. apply off_path_leaf.
    - destruct (N.ltb_spec e (i + pow2 h)); constructor; auto.
    - constructor. exact (off_path_neither _ _ _ _ Hin).
  Qed.

  Lemma vend_go_gets s e h : forall i, gets (@vend_go E s e i h) = ereads s e i h.
  Proof.
    induction h as [|h IH]; intros i; cbn [vend_go ereads]; destruct (negb _); try reflexivity.
    destruct (e <? i + pow2 h); cbn [gets]; rewrite ?IH, ?app_nil_r; reflexivity.
  Qed.

  Lemma vend_go_leaves s e h : forall i, leaves (@vend_go E s e i h) = [].
  Proof.
    induction h as [|h IH]; intros i; cbn [vend_go]; destruct (negb _); try reflexivity.
    destruct (e <? i + pow2 h); cbn [leaves]; rewrite ?IH; reflexivity.
  Qed.

  Lemma vend_go_keys s e h : forall i, ckeys (@vend_go E s e i h) = [].
  Proof.
    induction h as [|h IH]; intros i; cbn [vend_go]; destruct (negb _); try reflexivity.
    destruct (e <? i + pow2 h); cbn [ckeys]; rewrite !IH; reflexivity.
  Qed.

  Lemma checkc_go_pruned s e h : forall i, pruned (off_path e) e i h (@checkc_go E s e i h).
  Proof.
    induction h as [|h IH]; intros i; cbn [checkc_go]; destruct (inr s i _ || inr e i _) eqn:Hin; cbn [negb].
    - constructor; [constructor; apply off_path_leaf|reflexivity].
    - constructor; [constructor; apply off_path_leaf|reflexivity].
    - destruct (N.ltb_spec e (i + pow2 h)); constructor; auto.
    - constructor; [constructor; exact (off_path_neither _ _ _ _ Hin)|reflexivity].
  Qed.

  Lemma checkc_go_keys s e h : forall i, ckeys (@checkc_go E s e i h) = ereads s e i h.
  Proof.
    induction h as [|h IH]; intros i; cbn [checkc_go ereads]; destruct (negb _); try reflexivity.
    destruct (e <? i + pow2 h); cbn [ckeys]; rewrite ?IH, ?app_nil_r; reflexivity.
  Qed.

  (* these two place the start tree among the others (a pruning expanded along the path to s, without a leaf);
     [vstart_node] below takes the direct route *)
  Lemma vstart_go_pruned s h : forall i, pruned (off_path s) s i h (@vstart_go E s i h).
  Proof.
    induction h as [|h IH]; intros i; cbn [vstart_go]; [constructor; apply off_path_leaf|].
    destruct (N.ltb_spec s (i + pow2 h)); constructor; auto.
    constructor. apply off_path_out, inr_false. lia.
  Qed.

  Lemma vstart_go_leaves s h : forall i, leaves (@vstart_go E s i h) = [].
  Proof.
    induction h as [|h IH]; intros i; cbn [vstart_go]; [reflexivity|].
    destruct (s <? i + pow2 h); cbn [leaves]; apply IH.
  Qed.

  (* the start digest is a function of what the end recomputation reads: the start tree reads the leaf s and the left
     siblings of the path to it; the end tree reads them too (a left sibling holds neither s nor e: it is read
     whole), and a left sibling is complete at s, so the end version's hash of it is the start version's *)
  Lemma vstart_node (A : N -> E) (c : cache D) s e h : forall i,
    s <= e -> inr s i h = true ->
    (forall p, In p (ereads s e i h) -> reads A c e p) ->
    interp c (@vstart_go E s i h) = Some (node A s i h).
  Proof.
    induction h as [|h IH]; intros i Hse Hin Hc; cbn [ereads] in Hc; rewrite Hin in Hc; cbn [orb negb] in Hc;
      cbn [vstart_go].
    - exact (Hc _ (or_introl eq_refl)).
    - destruct (N.ltb_spec s (i + pow2 h)) as [Hs|Hs]; cbn [HistModel.interp].
      + rewrite (IH i Hse (inr_left _ _ _ Hin Hs)); [rewrite node_part by exact Hs; reflexivity|].
        intros p Hp. apply Hc, in_or_app. left. exact Hp.
      + destruct (N.ltb_spec e (i + pow2 h)) in Hc; [lia|].
        rewrite (Hc (i, h)), (IH _ Hse (inr_right _ _ _ Hin Hs)).
        * rewrite node_full by exact Hs. unfold nodeP. cbn [fst snd]. rewrite (frozen_stable A e s i h) by lia. reflexivity.
        * intros p Hp. apply Hc, in_or_app. right. exact Hp.
        * (* the left sibling is read whole *)
          apply in_or_app. left. rewrite ereads_out; [left; reflexivity|].
          apply orb_false_iff. split; apply inr_false; lia.
  Qed.

  (* the start tree (root height bitlen s) sits at the left spine of the end tree *)
  Lemma ereads_spine s e hs h p :
    s < pow2 hs -> (hs <= h)%nat -> In p (ereads s e 0 hs) -> In p (ereads s e 0 h).
  Proof.
    intros Hs Hle Hp. induction Hle as [|h Hle IH]; [exact Hp|].
    pose proof (proj2 (pow2_le_iff _ _) Hle).
    assert (Hin : inr s 0 (S h) = true) by (apply inr_true; rewrite pow2_S; lia).
    cbn [ereads]. rewrite Hin. cbn [orb negb]. apply in_or_app. left. exact IH.
  Qed.

  Lemma vstart_of_ereads (A : N -> E) (c : cache D) s e :
    s <= e -> (forall p, In p (ereads s e 0 (bitlen e)) -> reads A c e p) ->
    interp c (@vstart_go E s 0 (bitlen s)) = Some (root A s).
  Proof.
    intros Hse Hc. apply (vstart_node A c s e (bitlen s) 0 Hse (inr_root s s (N.le_refl s))).
    intros p Hp. apply Hc, (ereads_spine s e (bitlen s)); [apply bitlen_gt|apply bitlen_mono; exact Hse|exact Hp].
  Qed.

  Lemma findc_short_vend idx v h : forall i, inr idx i h = false -> @findc_short E idx v i h = vend_go idx v i h.
  Proof.
    induction h as [|h IH]; intros i Hf; cbn [findc_short vend_go]; destruct (negb _); try reflexivity.
    - destruct (N.eqb_spec i idx) as [->|]; [|reflexivity]. apply inr_false in Hf. rewrite pow2_0 in Hf. lia.
    - destruct (inr_out_halves _ _ _ Hf) as [Hl Hr]. rewrite (IH _ Hl), (IH _ Hr). reflexivity.
  Qed.

  Lemma findc_go_out idx v i h : inr idx i h || inr v i h = false -> @findc_go E idx v i h = OCollect (OGet i h).
  Proof. intros Hn. destruct h; cbn [findc_go]; rewrite Hn; reflexivity. Qed.

  Lemma findc_go_pruned idx v h : forall i, pruned (off_path v) v i h (@findc_go E idx v i h).
  Proof.
    induction h as [|h IH]; intros i; cbn [findc_go]; destruct (inr idx i _ || inr v i _) eqn:Hin; cbn [negb].
    - (* a leaf holding idx or v *)
      destruct (i =? idx); [apply pr_leaf|]. apply pr_collect; [apply pr_get, off_path_leaf|reflexivity].
    - (* a leaf holding neither *)
      apply pr_collect; [apply pr_get, off_path_leaf|reflexivity].
    - (* a subtree holding idx or v *)
      destruct (inr idx i (S h)) eqn:Hidx; cbn [negb andb].
      + destruct (N.ltb_spec v (i + pow2 h)); constructor; auto.
      + destruct (negb (idx =? v)).
        * (* the shortcut traversal, collected as one subtree *)
          rewrite (findc_short_vend idx v (S h) i Hidx). constructor; [apply vend_go_pruned|apply vend_go_leaves].
        * (* idx = v: cannot occur here (Hin, Hidx); closes structurally *)
          destruct (N.ltb_spec v (i + pow2 h)); constructor; auto.
    - (* a subtree holding neither: one read *)
      constructor; [|reflexivity]. constructor. exact (off_path_neither _ _ _ _ Hin).
  Qed.

  (* a subtree off the path to the index is collected as ONE entry: a cached node if it is complete, the shortcut
     recomputation (which itself emits nothing) if it holds the version *)
  Lemma findc_go_sibling idx v j k : inr idx j k = false -> ckeys (@findc_go E idx v j k) = [(j, k)].
  Proof.
    intros Hidx. destruct (inr v j k) eqn:Hv.
    - destruct k as [|k]; cbn [findc_go]; rewrite Hidx, Hv; cbn [orb negb andb].
      + destruct (N.eqb_spec j idx) as [->|]; [|reflexivity]. apply inr_false in Hidx. rewrite pow2_0 in Hidx. lia.
      + destruct (N.eqb_spec idx v) as [->|]; [congruence|]. cbn [negb ckeys].
        rewrite (findc_short_vend idx v (S k) j Hidx), vend_go_keys, (pruned_pos _ _ _ _ _ (vend_go_pruned idx v (S k) j)).
        reflexivity.
    - rewrite findc_go_out by (rewrite Hidx; exact Hv). reflexivity.
  Qed.

  Lemma findc_go_keys idx v (e : E) h : forall i,
    idx <= v -> inr idx i h = true -> ckeys (@findc_go E idx v i h) = gets (verify_go idx v e i h).
  Proof.
    induction h as [|h IH]; intros i Hle Hidx; cbn [findc_go verify_go]; rewrite Hidx; cbn [orb negb andb].
    - rewrite (inr_leaf _ _ Hidx), N.eqb_refl. reflexivity.
    - destruct (N.ltb_spec idx (i + pow2 h)) as [Hi|Hi].
      + destruct (N.ltb_spec v (i + pow2 h)); cbn [ckeys gets]; rewrite (IH i Hle (inr_left _ _ _ Hidx Hi)).
        * reflexivity.
        * rewrite (findc_go_sibling idx v (i + pow2 h)) by (apply inr_false; lia). reflexivity.
      + destruct (N.ltb_spec v (i + pow2 h)); [lia|]. cbn [ckeys gets].
        rewrite (IH (i + pow2 h) Hle (inr_right _ _ _ Hidx Hi)).
        rewrite (findc_go_sibling idx v i) by (apply inr_false; lia). reflexivity.
  Qed.

  (* search.go's special case for index = version builds the tree consistency.go would *)
  Lemma find_go_findc v h : forall i, inr v i h = true -> @find_go E v i h = findc_go v v i h.
  Proof.
    induction h as [|h IH]; intros i Hin; cbn [find_go findc_go]; rewrite Hin; cbn [orb negb andb].
    - rewrite (inr_leaf _ _ Hin), N.eqb_refl. reflexivity.
    - destruct (N.ltb_spec v (i + pow2 h)) as [Hv|Hv].
      + rewrite (IH i (inr_left _ _ _ Hin Hv)). reflexivity.
      + rewrite (IH _ (inr_right _ _ _ Hin Hv)), (findc_go_out v v i h); [reflexivity|].
        rewrite orb_diag. apply inr_false. lia.
  Qed.

  Section Prover.
    Variable A : N -> E.
    Variable st : cache D.
    Variable vs : N.
    Hypothesis Hst : StoreOK A st vs.

    (* C01, history half: HistoryTree.ProveMembership followed by MembershipProof.Verify recomputes the authentic root *)
    Theorem membership_complete idx v :
      idx <= v -> v <= vs ->
      exists path, prove_membership D E V H st idx v = Some path /\
                   membership_root D E V H (path_get path) idx v (A idx) = Some (root A v).
    Proof.
      intros Hle Hv. unfold prove_membership.
      assert (Ho : (if idx =? v then pruneToFind idx else pruneToFindConsistent idx v) = @findc_go E idx v 0 (bitlen v)).
      { destruct (N.eqb_spec idx v) as [->|]; [apply find_go_findc, inr_root, N.le_refl|reflexivity]. }
      rewrite Ho.
      destruct (prover_path A st vs v _ _ _ Hst Hv (findc_go_pruned idx v (bitlen v) 0) (aligned_0 _) (N.le_0_l _))
        as (Hn & Hpath).
      destruct (interp st _); [|contradiction]. eexists. split; [reflexivity|].
      apply (verify_go_node A _ idx v 0 _ (inr_root idx v Hle) Hle).
      rewrite Hpath, (findc_go_keys idx v (A idx)) by auto using inr_root. apply path_get_map.
    Qed.

    Lemma checkc_path s e :
      e <= vs ->
      prove_consistency D E V H st s e = Some (map (fun p => (p, nodeP A e p)) (ereads s e 0 (bitlen e))).
    Proof.
      intros He. unfold prove_consistency, pruneToCheckConsistency.
      destruct (prover_path A st vs e _ _ _ Hst He (checkc_go_pruned s e (bitlen e) 0) (aligned_0 _) (N.le_0_l _))
        as (Hn & Hpath). rewrite Hpath, checkc_go_keys.
      destruct (interp st _); [reflexivity|contradiction].
    Qed.

    (* C03: HistoryTree.ProveConsistency + IncrementalProof.Verify: both roots are recomputed *)
    Theorem incremental_complete s e :
      s <= e -> e <= vs ->
      exists path, prove_consistency D E V H st s e = Some path /\
                   incremental_roots D E V H (path_get path) s e = (Some (root A s), Some (root A e)).
    Proof.
      intros Hse He. eexists. split; [exact (checkc_path s e He)|].
      pose proof (path_get_map (nodeP A e) (ereads s e 0 (bitlen e))) as Hpath.
      unfold incremental_roots, pruneToVerifyIncrementalStart, pruneToVerifyIncrementalEnd, HistSpec.root. apply f_equal2.
      - exact (vstart_of_ereads A _ s e Hse Hpath).
      - apply (verifier_node _ A _ e _ _ _ (vend_go_pruned s e (bitlen e) 0)); [|rewrite vend_go_leaves; intros ? ? []].
        rewrite vend_go_gets. exact Hpath.
    Qed.
  End Prover.

  (* the verifier is a function of the proof: a genuine proof yields the genuine pair of digests and no other, so
     replacing either digest by another value is rejected *)
  Lemma incremental_genuine_roots (A : N -> E) (st : cache D) vs s e path d1 d2 :
    StoreOK A st vs -> s <= e -> e <= vs ->
    prove_consistency D E V H st s e = Some path ->
    incremental_roots D E V H (path_get path) s e = (Some d1, Some d2) ->
    d1 = root A s /\ d2 = root A e.
  Proof.
    intros Hst Hse He Hp Hacc.
    destruct (incremental_complete A st vs Hst s e Hse He) as (path' & Hp' & Hr).
    rewrite Hp in Hp'. injection Hp' as <-. rewrite Hr in Hacc. injection Hacc as <- <-. split; reflexivity.
  Qed.

  Section Sound.
  Hypothesis H_inj : forall a b, H a = H b -> a = b.

  Lemma node_pos (A : N -> E) v i h x :
    H x = node A v i h ->
    match x with
    | HLeaf _ j => (j, O) = (i, h)
    | HPart _ j k | HFull _ _ j k => (j, k) = (i, h)
    | _ => False
    end.
  Proof.
    intros Heq. destruct h; cbn [HistSpec.node] in Heq.
    - apply H_inj in Heq. subst x. reflexivity.
    - destruct (v <? _); apply H_inj in Heq; subst x; reflexivity.
  Qed.

  (* a trap: [injection] on [Some (node ..) = Some (node B v' i' (S h'))] reduces the node of successor height to the
     [if] of its definition, after which this lemma applies only with i' and h' given explicitly; [congruence] takes
     the [Some] off and leaves [node] folded *)
  Lemma node_eq_pos (A B : N -> E) v v' i h i' h' : node A v i h = node B v' i' h' -> (i, h) = (i', h').
  Proof.
    intros Heq. destruct h; cbn [HistSpec.node] in Heq; [|destruct (v <? _)]; exact (node_pos B v' i' h' _ Heq).
  Qed.

  (* v' is the CLAIMED version, for which the tree was pruned; v is the version of the authentic node.  First
     conjunct: the tree is a pruning for v as well - under H_inj acceptance forces every partial/full choice of the
     claimed version to be the authentic one ([root_sound] hands it to [pruned_version]). *)
  Lemma interp_sound G (A : N -> E) (c : cache D) v v' o i h :
    pruned G v' i h o -> i <= v -> interp c o = Some (node A v i h) ->
    pruned (reads A c v) v i h o /\
    (forall j x, In (j, x) (leaves o) -> x = Some (A j) /\ j <= v).
  Proof.
    induction 1 as [i h Hg|i x|i h l Hlt Hl IHl|i h l r Hge Hl IHl Hr IHr|i h o Ho IH Hlv];
      cbn [leaves HistModel.interp]; intros Hv Heq.
    - split; [constructor; exact Heq|intros ? ? []].
    - split; [constructor|]. intros j y [Hjy|[]]. injection Hjy as <- <-.
      injection Heq as Heq. destruct x as [e|]; apply H_inj in Heq; [|discriminate].
      injection Heq as ->. split; [reflexivity|exact Hv].
    - destruct (interp c l) as [lh|] eqn:El; [|discriminate].
      (* injection would unfold node: choose its equation first *)
      destruct (N.lt_ge_cases v (i + pow2 h)) as [Hc|Hc].
      + (* the authentic node is partial too: the left children are equal *)
        rewrite node_part in Heq by exact Hc. injection Heq as Heq. apply H_inj in Heq. injection Heq as ->.
        (* the destruct of interp c l also rewrote IHl's premise, to Some lh = Some _ *)
        destruct (IHl Hv eq_refl) as (P & L). split; [constructor; assumption|exact L].
      + (* the authentic node is full: a partial node's hash input is not a full node's *)
        rewrite node_full in Heq by exact Hc. injection Heq as Heq. apply H_inj in Heq. discriminate Heq.
    - destruct (interp c l) as [lh|] eqn:El; [|discriminate].
      destruct (interp c r) as [rh|] eqn:Er; [|discriminate].
      destruct (N.lt_ge_cases v (i + pow2 h)) as [Hc|Hc].
      + (* the authentic node is partial: as above *)
        rewrite node_part in Heq by exact Hc. injection Heq as Heq. apply H_inj in Heq. discriminate Heq.
      + rewrite node_full in Heq by exact Hc. injection Heq as Heq. apply H_inj in Heq. injection Heq as -> ->.
        destruct (IHl Hv eq_refl) as (P1 & L1). destruct (IHr Hc eq_refl) as (P2 & L2).
        split; [constructor; assumption|]. intros j x Hin. apply in_app_or in Hin. destruct Hin; auto.
    - destruct (IH Hv Heq) as (P & L). split; [constructor; assumption|exact L].
  Qed.

  (* a recomputation that hashes at its top yields a node of its own position only *)
  Fixpoint hashes (o : op) : bool :=
    match o with
    | OGet _ _ => false
    | OLeaf _ _ | OInner _ _ _ _ | OPartial _ _ _ => true
    | OPut o | OMutate o | OCollect o => hashes o
    end.

  Lemma interp_pos G (A : N -> E) (c : cache D) x v o i h i' h' :
    pruned G x i h o -> hashes o = true -> interp c o = Some (node A v i' h') -> (i, h) = (i', h').
  Proof.
    induction 1 as [i h Hg|i y|i h l Hlt Hl IHl|i h l r Hge Hl IHl Hr IHr|i h o Ho IH Hlv];
      cbn [hashes HistModel.interp]; intros Hh Heq.
    - discriminate Hh.
    - injection Heq as Heq. destruct y; [exact (node_pos A v i' h' _ Heq)|destruct (node_pos A v i' h' _ Heq)].
    - destruct (interp c l); [|discriminate]. injection Heq as Heq. exact (node_pos A v i' h' _ Heq).
    - destruct (interp c l); [|discriminate]. destruct (interp c r); [|discriminate]. injection Heq as Heq.
      exact (node_pos A v i' h' _ Heq).
    - exact (IH Hh Heq).
  Qed.

  Lemma pruned_hashes x v o : forall i h,
    pruned (off_path x) v i h o -> inr x i h = true -> (0 < h)%nat -> hashes o = true.
  Proof.
    induction 1 as [i h Hg|i y|i h l Hlt Hl IHl|i h l r Hge Hl IHl Hr IHr|i h o Ho IH Hlv]; intros Hin Hh; cbn [hashes].
    - (* a read on the path is at height 0 *) rewrite (Hg Hin : h = O) in Hh. inversion Hh.
    - reflexivity.
    - reflexivity.
    - reflexivity.
    - exact (IH Hin Hh).
  Qed.

  (* at height 0 the tree is a bare read and pins nothing, hence 0 < bitlen x ([incremental_sound] splits that case
     off) *)
  Lemma root_sound (A : N -> E) (c : cache D) x v o :
    pruned (off_path x) x 0 (bitlen x) o -> (0 < bitlen x)%nat -> interp c o = Some (root A v) ->
    x = v /\ forall p, In p (gets o) -> reads A c v p.
  Proof.
    intros Hp Hh Heq. unfold HistSpec.root in Heq. pose proof (inr_root x x (N.le_refl x)) as Hx.
    (* the authentic digest has the height of the recomputed tree *)
    injection (interp_pos _ A c x v o _ _ _ _ Hp (pruned_hashes _ _ _ _ _ Hp Hx Hh) Heq) as Hb.
    rewrite <- Hb in Heq.
    destruct (interp_sound _ A c v x _ _ _ Hp (N.le_0_l _) Heq) as (P & _).
    pose proof (bitlen_gt v) as Hgv. rewrite <- Hb in Hgv.
    split; [symmetry; exact (pruned_version _ x v o 0 _ Hp P Hx (N.le_0_l _) Hgv)|].
    exact (pruned_gets _ _ _ _ _ P).
  Qed.

  Lemma verify_go_hashes idx v (e : E) i h : hashes (verify_go idx v e i h) = true.
  Proof. destruct h; cbn [verify_go]; [reflexivity|]. destruct (idx <? _); destruct (v <? _); reflexivity. Qed.

  Lemma verify_go_sound (A : N -> E) (c : cache D) idx v' v e i h :
    inr idx i h = true -> idx <= v' -> i <= v ->
    interp c (verify_go idx v' e i h) = Some (node A v i h) -> e = A idx /\ idx <= v.
  Proof.
    intros Hin Hle Hi Heq.
    destruct (interp_sound _ A c v v' _ _ _ (verify_go_pruned idx v' e h i) Hi Heq) as (_ & L).
    destruct (L idx (Some e)) as [He Hv]; [|injection He as ->; auto].
    rewrite (verify_go_leaves idx v' e h i Hin Hle). left. reflexivity.
  Qed.

  (* C02, history half.  MembershipProof.Verify accepted against an authentic root, for EVERY audit path c (an
     arbitrary function): the digest is the event at the claimed index, and that index exists in the authentic
     version.  The premise idx <= v' is essential: without it pruneToVerify discards the branch holding the leaf
     (History/HistGuard.v). *)
  Theorem membership_sound (A : N -> E) (c : cache D) idx v' v e :
    idx <= v' ->
    membership_root D E V H c idx v' e = Some (root A v) ->
    e = A idx /\ idx <= v.
  Proof.
    unfold membership_root, pruneToVerify, HistSpec.root. intros Hle Heq.
    (* the authentic digest has the height of the recomputed tree *)
    injection (interp_pos _ A c v' v _ _ _ _ _ (verify_go_pruned idx v' e (bitlen v') 0) (verify_go_hashes _ _ _ _ _) Heq)
      as Hh.
    rewrite <- Hh in Heq.
    exact (verify_go_sound A c idx v' v e 0 _ (inr_root idx v' Hle) Hle (N.le_0_l v) Heq).
  Qed.

  (* the membership proof that log A yields for a leaf k of the subtree verifies against A's node; if that is B's node as
     well, B holds the same event at k, and k exists in B's version *)
  Lemma node_inj (A B : N -> E) v v' i h :
    i <= v' -> node A v i h = node B v' i h ->
    forall k, inr k i h = true -> k <= v -> A k = B k /\ k <= v'.
  Proof.
    intros Hi Heq k Hin Hk. apply (verify_go_sound B (fun p => Some (nodeP A v p)) k v v' (A k) i h Hin Hk Hi).
    rewrite <- Heq. apply verify_go_node; [exact Hin|exact Hk|reflexivity].
  Qed.

  (* equal digests stand at equal heights; then [node_inj] at the root, in both directions *)
  Theorem root_inj (A B : N -> E) v v' :
    root A v = root B v' -> v = v' /\ forall k, k <= v -> A k = B k.
  Proof.
    unfold HistSpec.root. intros Heq. pose proof (node_eq_pos A B v v' _ _ _ _ Heq) as Hb. injection Hb as Hb.
    pose proof (inr_root v' v' (N.le_refl v')) as Hv'. rewrite <- Hb in Heq, Hv'.
    pose proof (fun k Hk => node_inj A B v v' 0 _ (N.le_0_l v') Heq k (inr_root k v Hk) Hk) as Hab.
    split; [|intros k Hk; exact (proj1 (Hab k Hk))].
    apply N.le_antisymm; [exact (proj2 (Hab v (N.le_refl v)))|].
    exact (proj2 (node_inj B A v' v 0 _ (N.le_0_l v) (eq_sym Heq) v' Hv' (N.le_refl v'))).
  Qed.

  (* C03.  IncrementalProof.Verify accepted against the authentic digest of log A at version i' and of log B at
     version j': the two logs agree on every event up to the claimed start version, and (except for the
     degenerate proof with end version 0, which reads both digests from the same path entry) the claimed
     versions are the authentic ones. *)
  Theorem incremental_sound (A B : N -> E) (c : cache D) s e i' j' :
    s <= e ->
    incremental_roots D E V H c s e = (Some (root A i'), Some (root B j')) ->
    (forall k, k <= s -> A k = B k) /\
    (0 < e -> s = i' /\ e = j') /\
    (e = 0 -> i' = j' /\ forall k, k <= i' -> A k = B k).
  Proof.
    unfold incremental_roots, pruneToVerifyIncrementalStart, pruneToVerifyIncrementalEnd.
    intros Hse Heq. injection Heq as Hs He.
    destruct (N.eq_dec e 0) as [He0|He0].
    { subst e. assert (s = 0) by lia. subst s. change (bitlen 0) with O in Hs, He.
      cbn [vstart_go HistModel.interp] in Hs. cbn [vend_go] in He.
      assert (He' : root A i' = root B j').
      { (* vend_go 0 0 0 0 is a read of entry (0,0) in both branches of its test *)
        destruct (negb _) in He; cbn [HistModel.interp] in He; rewrite Hs in He; injection He as He; exact He. }
      destruct (root_inj A B i' j' He') as [Hij Hag]. split; [|split].
      - intros k Hk. apply Hag. lia.
      - lia.
      - intros _. split; [exact Hij|exact Hag]. }
    pose proof (bitlen_pos e He0) as Hbe.
    (* the end tree: authentic version, and every entry it reads is B's; these determine the start digest *)
    destruct (root_sound B c e j' _ (vend_go_pruned s e (bitlen e) 0) Hbe He) as (<- & GE).
    rewrite vend_go_gets in GE. rewrite (vstart_of_ereads B c s e Hse GE) in Hs. injection Hs as Hs.
    destruct (root_inj B A s i' Hs) as [<- Hag].
    split; [|split].
    - intros k Hk. symmetry. exact (Hag k Hk).
    - intros _. split; reflexivity.
    - intros Hz. destruct (He0 Hz).
  Qed.

  (* C03: every entry the end recomputation reads is pinned by the authentic end digest *)
  Lemma vend_unique (A : N -> E) (c : cache D) s e h : forall i,
    i <= e ->
    interp c (@vend_go E s e i h) = Some (node A e i h) ->
    forall p, In p (ereads s e i h) -> c p = Some (nodeP A e p).
  Proof.
    intros i Hi Heq p Hin. rewrite <- vend_go_gets in Hin.
    destruct (interp_sound _ A c e e _ _ _ (vend_go_pruned s e h i) Hi Heq) as (P & _).
    exact (pruned_gets _ _ _ _ _ P p Hin).
  Qed.

  (* C03.  Altering any entry of a genuine incremental proof makes verification fail: whatever else the altered
     path c' contains, if it disagrees with the genuine path on one of its entries the recomputed end root
     is not the authentic one. *)
  Theorem incremental_reject_altered_entry (A : N -> E) (st : cache D) vs s e path :
    StoreOK A st vs -> s <= e -> e <= vs ->
    prove_consistency D E V H st s e = Some path ->
    forall k d (c' : cache D), In (k, d) path -> c' k <> Some d ->
    incremental_roots D E V H c' s e <> (Some (root A s), Some (root A e)).
  Proof.
    intros Hst Hse He Hpath k d c' Hin Hne Hacc.
    rewrite (checkc_path A st vs Hst s e He) in Hpath. injection Hpath as <-.
    apply in_map_iff in Hin. destruct Hin as (p & Hp & Hk). injection Hp as <- <-. apply Hne.
    unfold incremental_roots, pruneToVerifyIncrementalEnd in Hacc. injection Hacc as _ Hend.
    exact (vend_unique A c' s e (bitlen e) 0 (N.le_0_l _) Hend p Hk).
  Qed.

  End Sound.

  (* g is what the insert visitor reads: the write cache (an LRU cache in Go) over the store; it holds every node
     complete BEFORE version v (exclusive, where StoreOK is inclusive: [StoreOK_GetOK]).
     Assumption: the model's [ins_get] starts empty at each call and never evicts; this is the Go cache as long as it
     is read-through and holds what one call puts (production size 300; a stated assumption of C04).
     What breaks it: a bulk with a cache of a few entries evicts nodes before the call persists them, and the Go
     code panics (DESIGN 7.3). *)
  Definition GetOK (A : N -> E) (g : cache D) (v : N) : Prop :=
    forall i h, aligned i h -> i + pow2 h <= v -> g (i, h) = Some (fz A i h).

  Lemma StoreOK_GetOK (A : N -> E) (c : cache D) vs : StoreOK A c vs <-> GetOK A c (vs + 1).
  Proof. apply iff_refl. Qed.

  Notation interp_ins := (interp_ins D E V H).

  Lemma GetOK_ext (A B : N -> E) (g : cache D) v :
    (forall i, i < v -> A i = B i) -> GetOK A g v -> GetOK B g v.
  Proof.
    intros Hag Hg i h Ha Hf. rewrite (Hg i h Ha Hf). f_equal. unfold HistSpec.fz.
    pose proof (pow2_pos h). apply node_ext; [|lia]. intros k Hk1 Hk2 Hk3. apply Hag. lia.
  Qed.

  (* the entries of l: aligned nodes that become complete exactly at v, each with its final hash *)
  Definition NewOK (A : N -> E) (v : N) (l : list (pos * D)) : Prop :=
    forall p d, In (p, d) l -> d = fz A (fst p) (snd p) /\ aligned (fst p) (snd p) /\ fst p + pow2 (snd p) = v + 1.

  Lemma aligned_le x k h : (k <= h)%nat -> aligned x h -> aligned x k.
  Proof. induction 1 as [|h Hkh IH]; intros Hx; [exact Hx|exact (IH (aligned_left _ _ Hx))]. Qed.

  (* an aligned block that starts before a coarser aligned boundary ends at or before it *)
  Lemma aligned_step j k x h : aligned j k -> aligned x h -> (k <= h)%nat -> j < x -> j + pow2 k <= x.
  Proof.
    intros [b ->] Hx Hkh Hlt. destruct (aligned_le _ k h Hkh Hx) as [a ->].
    apply N.mul_lt_mono_pos_r in Hlt; [|apply pow2_pos].
    rewrite <- N.mul_succ_l. apply N.mul_le_mono_r, N.le_succ_l, Hlt.
  Qed.

  (* the nodes (j, k) inside the subtree (i, S h) that become complete at v: the subtree itself, or a lower node; the
     lower node lies in the right half once v does (a premise of the second arm because insert_correct needs that
     only where the node is full, and needs nothing beyond k <= h where it is partial) *)
  Lemma completes_cases i h j k v :
    aligned i (S h) -> aligned j k -> j + pow2 k = v + 1 -> i <= j -> (k <= S h)%nat -> v < i + pow2 (S h) ->
    (k = S h /\ j = i) \/ ((k <= h)%nat /\ (i + pow2 h <= v -> i + pow2 h <= j)).
  Proof.
    intros Ha Haj Hjk Hj Hk Hv. destruct (Nat.eq_dec k (S h)) as [->|Hne].
    - left. lia.
    - right. split; [lia|]. intros Hc. destruct (N.lt_ge_cases j (i + pow2 h)) as [Hlt|Hge]; [exfalso|exact Hge].
      pose proof (aligned_step j k (i + pow2 h) h Haj (aligned_right _ _ Ha) ltac:(lia) Hlt). lia.
  Qed.

  (* One insertion: the traversal of the subtree (i,h) containing v returns the spec hash, puts/mutates
     exactly the nodes that become complete at v, each with its frozen hash. *)
  Lemma insert_correct (A : N -> E) (base : cache D) v h : forall i puts muts,
    aligned i h -> inr v i h = true ->
    GetOK A (ins_get base puts) v ->
    exists newp,
      interp_ins base (@insert_go E v (A v) i h) (puts, muts) = Some (node A v i h, (newp ++ puts, newp ++ muts)) /\
      NewOK A v newp /\
      (forall j k, aligned j k -> j + pow2 k = v + 1 -> i <= j -> (k <= h)%nat -> In (j, k) (map fst newp)).
  Proof.
    induction h as [|h IH]; intros i puts muts Ha Hin Hg.
    - pose proof (inr_leaf _ _ Hin). subst i.
      exists [((v, O), H (HLeaf (A v) v))]. split; [reflexivity|]. split.
      + intros p d [Hp|[]]. injection Hp as <- <-. cbn [fst snd]. unfold HistSpec.fz. rewrite pow2_0, N.add_sub.
        split; [reflexivity|split; [exact Ha|lia]].
      + intros j k _ Hjk Hj Hk. assert (k = O) by lia. subst k. rewrite pow2_0 in Hjk. assert (j = v) by lia. subst j.
        left. reflexivity.
    - pose proof (pow2_pos h) as Hp. pose proof (proj2 (proj1 (inr_true _ _ _) Hin)) as Hhi. cbn [insert_go].
      destruct (N.ltb_spec v (i + pow2 h)) as [Hc|Hc].
      + (* v in the left half: a partial node, never complete *)
        destruct (IH i puts muts (aligned_left _ _ Ha) (inr_left _ _ _ Hin Hc) Hg) as (newp & Hrun & Hnew & Hcov).
        cbn [HistModel.interp_ins]. rewrite Hrun, node_part by exact Hc.
        exists newp. split; [reflexivity|]. split; [exact Hnew|].
        intros j k Haj Hjk Hj Hk.
        destruct (completes_cases i h j k v Ha Haj Hjk Hj Hk Hhi) as [[-> ->]|[Hk' _]];
          [|exact (Hcov j k Haj Hjk Hj Hk')].
        rewrite pow2_S in Hjk. lia.
      + (* v in the right half: a full node *)
        assert (Hgl : ins_get base puts (i, h) = Some (node A v i h)).
        { rewrite (frozen_fz A v i h) by lia. apply Hg; [apply aligned_left; exact Ha|lia]. }
        (* the left child is a read: puts, muts unchanged *)
        destruct (IH (i + pow2 h) puts muts (aligned_right _ _ Ha) (inr_right _ _ _ Hin Hc) Hg)
          as (newp & Hrun & Hnew & Hcov).
        destruct (N.leb_spec (i + pow2 (S h) - 1) v) as [Hfr|Hfr];
          cbn [HistModel.interp_ins op_pos fst]; rewrite Hgl, Hrun, node_full by exact Hc.
        * (* the subtree itself becomes complete: it is put and mutated with its frozen hash *)
          eexists (_ :: newp). split; [reflexivity|]. split.
          -- intros p d [Hpd|Hpd]; [|apply Hnew; exact Hpd]. injection Hpd as <- <-. cbn [fst snd].
             rewrite <- node_full by exact Hc. split; [apply frozen_fz; lia|split; [exact Ha|lia]].
          -- intros j k Haj Hjk Hj Hk.
             destruct (completes_cases i h j k v Ha Haj Hjk Hj Hk Hhi) as [[-> ->]|[Hk' Hj']];
               [left; reflexivity|right].
             (* Hj' Hc: the lower node lies in the right half *)
             exact (Hcov j k Haj Hjk (Hj' Hc) Hk').
        * (* the subtree stays open: nothing written at this node *)
          exists newp. split; [reflexivity|]. split; [exact Hnew|].
          intros j k Haj Hjk Hj Hk.
          destruct (completes_cases i h j k v Ha Haj Hjk Hj Hk Hhi) as [[-> ->]|[Hk' Hj']];
            [lia|exact (Hcov j k Haj Hjk (Hj' Hc) Hk')].
  Qed.

  Lemma GetOK_advance (A : N -> E) (base : cache D) puts newp v :
    GetOK A (ins_get base puts) v -> NewOK A v newp ->
    (forall j k, aligned j k -> j + pow2 k = v + 1 -> In (j, k) (map fst newp)) ->
    GetOK A (ins_get base (newp ++ puts)) (v + 1).
  Proof.
    intros Hg Hnew Hcov j k Haj Hjk. unfold ins_get. rewrite assoc_app.
    destruct (assoc pos_eqb (j, k) newp) as [d|] eqn:Has.
    - apply (assoc_Some_In pos_eqb pos_eqb_eq) in Has. destruct (Hnew _ _ Has) as [-> _]. reflexivity.
    - apply (assoc_None pos_eqb pos_eqb_eq) in Has.
      assert (Hlt : j + pow2 k <= v).
      { destruct (N.eq_dec (j + pow2 k) (v + 1)) as [Heq|Hne]; [|lia]. exfalso. apply Has. apply Hcov; assumption. }
      exact (Hg j k Haj Hlt).
  Qed.

  (* C04, history half.  HistoryTree.Add for version v on a store/write cache holding every node completed before v:
     returns the canonical root, and the write cache + mutations now hold every node completed up to v *)
  Theorem insert_root (A : N -> E) (base : cache D) v puts muts :
    GetOK A (ins_get base puts) v ->
    exists newp,
      interp_ins base (pruneToInsert v (A v)) (puts, muts) = Some (root A v, (newp ++ puts, newp ++ muts)) /\
      NewOK A v newp /\ GetOK A (ins_get base (newp ++ puts)) (v + 1).
  Proof.
    intros Hg. unfold pruneToInsert, HistSpec.root. pose proof (bitlen_gt v) as Hgt.
    destruct (insert_correct A base v (bitlen v) 0 puts muts (aligned_0 _) (inr_root v v (N.le_refl v)) Hg)
      as (newp & Hrun & Hnew & Hcov).
    exists newp. split; [exact Hrun|]. split; [exact Hnew|].
    apply GetOK_advance; [exact Hg|exact Hnew|].
    intros j k Haj Hjk. apply Hcov; [exact Haj|exact Hjk|lia|].
    apply pow2_le_iff. lia.
  Qed.

  (* C04, C05.  HistoryTree.AddBulk / any sequence of Adds: the k-th digest is root (v+k), whatever the grouping *)
  Theorem bulk_correct (A : N -> E) (base : cache D) n : forall v puts muts,
    GetOK A (ins_get base puts) v ->
    exists newp,
      bulk_go D E V H base (map A (map (fun k => v + N.of_nat k) (seq 0 n))) v (puts, muts)
        = Some (map (fun k => root A (v + N.of_nat k)) (seq 0 n), (newp ++ puts, newp ++ muts)) /\
      (forall p d, In (p, d) newp -> d = fz A (fst p) (snd p)) /\
      GetOK A (ins_get base (newp ++ puts)) (v + N.of_nat n).
  Proof.
    induction n as [|n IH]; intros v puts muts Hg.
    - exists []. split; [reflexivity|]. split; [intros ? ? []|]. rewrite N.add_0_r. exact Hg.
    - cbn [seq map bulk_go]. rewrite N.add_0_r.
      destruct (insert_root A base v puts muts Hg) as (np1 & Hrun1 & Hnew1 & Hg1).
      rewrite Hrun1.
      destruct (IH (v + 1) (np1 ++ puts) (np1 ++ muts) Hg1) as (np2 & Hrun2 & Hnew2 & Hg2).
      assert (Hsh : forall B (f : N -> B),
                map (fun k => f (v + N.of_nat k)) (seq 1 n) = map (fun k => f (v + 1 + N.of_nat k)) (seq 0 n)).
      { intros B f. rewrite <- seq_shift, map_map. apply map_ext. intros a. f_equal. lia. }
      rewrite (Hsh N (fun k => k)), Hrun2, Hsh.
      exists (np2 ++ np1). rewrite <- !app_assoc. split; [reflexivity|]. split.
      + intros p d Hin. apply in_app_or in Hin. destruct Hin as [Hin|Hin]; [apply Hnew2; exact Hin|apply (Hnew1 p d Hin)].
      + replace (v + N.of_nat (S n)) with (v + 1 + N.of_nat n) by lia. exact Hg2.
  Qed.

  (* HistoryTree.AddBulk as the balloon calls it: no write cache yet, the mutations applied to the store *)
  Lemma tree_add_bulk_correct (A : N -> E) (base : cache D) (e0 : E) new v :
    (forall k, (k < length new)%nat -> A (v + N.of_nat k) = nth k new e0) -> GetOK A base v ->
    exists muts, tree_add_bulk D E V H base new v
                   = Some (map (fun k => root A (v + N.of_nat k)) (seq 0 (length new)), muts) /\
                 GetOK A (store_apply D base muts) (v + N.of_nat (length new)).
  Proof.
    intros HA Hg.
    assert (Hnew : map A (map (fun k => v + N.of_nat k) (seq 0 (length new))) = new).
    { rewrite <- (map_nth_seq e0 new) at 2. rewrite map_map. apply map_ext_in. intros k Hk. apply in_seq in Hk.
      apply HA. lia. }
    destruct (bulk_correct A base (length new) v [] [] Hg) as (newp & Hrun & _ & Hg1).
    unfold tree_add_bulk, store_apply. rewrite Hnew in Hrun. rewrite Hrun.
    eexists. split; [reflexivity|]. rewrite rev_involutive. exact Hg1.
  Qed.
End Proofs.
