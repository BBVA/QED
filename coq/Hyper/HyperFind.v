(* The search of the batch-level hyper tree (Hyper/HyperBatch.v bfind, the mirror of balloon/hyper/search.go) returns
   what the published construction returns: the value stored for the key and the audit path of `hyper_find`. *)
From QV Require Import Base.Util Base.Facts Base.HashSig Hyper.HyperModel Hyper.HyperProofs Hyper.HyperBatch Hyper.HyperRefine
  Hyper.HyperRefineSpec.
From Coq Require Import Permutation.

Local Open Scope nat_scope.

Section HyperFind.
  Variables D E V : Type.
  Variable H : hin D E V -> D.
  Variable limit nbits : nat.
  Notation ds := (dlist D E V H nbits).
  Notation sh := (sh D E V H limit nbits).
  Notation keys_ok := (keys_ok V nbits).
  Notation bt := (bt D V).
  Notation M0 := (M0 V). Notation M1 := (M1 V).

  (* the specification of the search on full keys: yfind on ybuild (sfind_spec) *)
  Fixpoint sfind (h : nat) (pre : list bool) (M : list (key * V)) (key : key) {struct h} : option V * list (hpos * D) :=
    match M with
    | [] => (None, [])
    | (k, v) :: rest =>
        match h with
        | O => ((if key_eqb k key then Some v else None), [])
        | S h' =>
            let nd :=
              if bit_at pre key then
                let '(x, p) := sfind h' (pre ++ [true]) (M1 pre M) key in
                (x, ((pre ++ [false], h'), sh h' (pre ++ [false]) (M0 pre M)) :: p)
              else
                let '(x, p) := sfind h' (pre ++ [false]) (M0 pre M) key in
                (x, ((pre ++ [true], h'), sh h' (pre ++ [true]) (M1 pre M)) :: p) in
            match rest with
            | [] => if Nat.leb h limit then ((if key_eqb k key then Some v else None), []) else nd
            | _ => nd
            end
        end
    end.

  (* sfind recurses as sh does: the three equations are those of sh_nil, sh_single, sh_node *)
  Lemma sfind_nil h pre key : sfind h pre [] key = (None, []).
  Proof. destruct h; reflexivity. Qed.
  Lemma sfind_single h pre k v key : h <= limit -> sfind h pre [(k, v)] key = ((if key_eqb k key then Some v else None), []).
  Proof.
    intros Hl. destruct h as [|h']; [reflexivity|]. cbn [sfind].
    rewrite (proj2 (Nat.leb_le _ _) Hl). reflexivity.
  Qed.
  Lemma sfind_node h' pre M key : branches V limit (S h') M ->
    sfind (S h') pre M key =
      if bit_at pre key then
        let '(x, p) := sfind h' (pre ++ [true]) (M1 pre M) key in
        (x, ((pre ++ [false], h'), sh h' (pre ++ [false]) (M0 pre M)) :: p)
      else
        let '(x, p) := sfind h' (pre ++ [false]) (M0 pre M) key in
        (x, ((pre ++ [true], h'), sh h' (pre ++ [true]) (M1 pre M)) :: p).
  Proof.
    intros Hc. destruct M as [|[k v] [|x rest]].
    - destruct Hc as [Hc|[Hc _]]; [cbn in Hc; lia|contradiction].
    - destruct Hc as [Hc|[_ Hc]]; [cbn in Hc; lia|]. cbn [sfind]. rewrite (proj2 (Nat.leb_gt _ _) Hc). reflexivity.
    - reflexivity.
  Qed.

  Notation RepA := (RepA D E V H limit nbits).
  Notation RepC := (RepC D E V H limit nbits).
  Notation SlotA := (SlotA D E V H limit nbits).
  Notation SlotC := (SlotC D E V H limit nbits).

  (* a slot at height h' belongs to the node at height S h', so Slot tests limit <= h' where Rep and tab test limit < h *)
  Definition Rep (sC sA : hpos -> bt) (h : nat) (pre : list bool) (t : bt) (M : list (key * V)) : Prop :=
    if Nat.ltb limit h then RepC sC sA h pre t M else RepA sA h pre t M.
  Definition Slot (sC sA : hpos -> bt) (h' : nat) (pre' : list bool) (ct : bt) (M' : list (key * V)) : Prop :=
    if Nat.leb limit h' then SlotC sC sA h' pre' ct M' else SlotA sA h' pre' ct M'.
  Definition tab (sC sA : hpos -> bt) (q : hpos) : bt := if Nat.ltb limit (snd q) then sC q else sA q.

  Lemma Rep_view sC sA h pre t M : Rep sC sA h pre t M ->
    (M = [] /\ all_none D V t) \/
    (exists k v l r, M = [(k, v)] /\ h <= limit /\ t = BNode D V (Some (SLeaf D V (H (YLeaf v (pre, h))))) l r /\
                     rslot D V l = Some (SKey D V k) /\ rslot D V r = Some (SVal D V v)) \/
    (exists h' l r, h = S h' /\ branches V limit h M /\ t = BNode D V (Some (SHash D V (sh h pre M))) l r /\
                    Slot sC sA h' (pre ++ [false]) l (M0 pre M) /\ Slot sC sA h' (pre ++ [true]) r (M1 pre M)).
  Proof.
    unfold Rep, Slot. destruct (Nat.ltb limit h) eqn:Hlt; intros HR.
    - apply Nat.ltb_lt in Hlt. destruct M as [|x M'].
      + left. split; [reflexivity|]. apply RepC_nil in HR. exact (proj1 HR).
      + right. right. destruct h as [|h']; [destruct HR|]. apply -> RepC_node in HR; [|discriminate].
        destruct HR as (l & r & -> & Hl & Hr). exists h', l, r.
        rewrite (proj2 (Nat.leb_le limit h')) by lia.
        assert (Hbr : branches V limit (S h') (x :: M')) by (apply branches_above; [discriminate|exact Hlt]).
        repeat split; assumption.
    - apply Nat.ltb_ge in Hlt. destruct M as [|[k v] [|y M2]].
      + left. split; [reflexivity|]. apply RepA_nil in HR. exact (proj1 HR).
      + right. left. apply RepA_single in HR. destruct HR as [(l & r & -> & Hrl & Hrr & _) _]. exists k, v, l, r. repeat split; assumption.
      + right. right. destruct h as [|h']; [destruct HR|]. apply -> RepA_node in HR; [|cbn; lia].
        destruct HR as (l & r & -> & Hl & Hr). exists h', l, r.
        rewrite (proj2 (Nat.leb_gt limit h')) by lia.
        assert (Hbr : branches V limit (S h') ((k, v) :: y :: M2)) by (apply branches_many; cbn; lia).
        repeat split; assumption.
  Qed.

  Hypothesis limit4 : limit mod 4 = 0.

  Lemma Slot_view sC sA h' pre' ct M' : Slot sC sA h' pre' ct M' ->
    reads D E V H limit nbits ct h' pre' M' /\
    Rep sC sA h' pre' (if Nat.eqb (h' mod 4) 0 then tab sC sA (pre', h') else ct) M'.
  Proof.
    unfold Slot, tab, Rep. cbn [snd]. intros Hs.
    destruct (Nat.leb limit h') eqn:Hle; [apply Nat.leb_le in Hle|apply Nat.leb_gt in Hle].
    - split; [exact (SlotC_reads D E V H limit nbits sC sA h' pre' ct M' Hs)|].
      destruct (Nat.eqb (h' mod 4) 0) eqn:Hb; [apply Nat.eqb_eq in Hb|apply Nat.eqb_neq in Hb].
      + pose proof (SlotC_loaded D E V H limit nbits _ _ _ _ _ _ Hb Hs) as HR. destruct (Nat.ltb limit h'); exact HR.
      + rewrite (proj2 (Nat.ltb_lt limit h') (above_limit limit limit4 h' Hle Hb)). apply SlotC_inner; assumption.
    - split; [exact (SlotA_reads D E V H limit nbits sA h' pre' ct M' (Nat.lt_le_incl _ _ Hle) Hs)|].
      rewrite (proj2 (Nat.ltb_ge limit h')) by lia.
      destruct (Nat.eqb (h' mod 4) 0) eqn:Hb; [apply Nat.eqb_eq in Hb|apply Nat.eqb_neq in Hb].
      + exact (SlotA_loaded D E V H limit nbits _ _ _ _ _ Hb Hs).
      + apply SlotA_inner; assumption.
  Qed.

  Hypothesis nbits4 : nbits mod 4 = 0.

  Section OnTables.
    Variable st : hstate D V.
    Notation bfindW := (bfind D E V H limit nbits ds st).
    Notation sA0 := (sA0 D V st).
    Notation sC0 := (sC0 D V st).

    Lemma tab_load q : tab sC0 sA0 q = load D V limit st q.
    Proof. reflexivity. Qed.

    (* the local function `child` of bfind *)
    Definition bchild (h' : nat) (pre' : list bool) (key : key) (ct : bt) : option V * list (hpos * D) :=
      match rslot D V ct with
      | None => (None, [])
      | Some _ => if Nat.eqb (h' mod 4) 0 then bfindW h' pre' key (load D V limit st (pre', h')) else bfindW h' pre' key ct
      end.

    Lemma bfind_inner h' pre key d l r :
      bfindW (S h') pre key (BNode D V (Some (SHash D V d)) l r) =
        if bit_at pre key then
          match discard D E V H nbits ds l h' with
          | Some dl => let '(v, p) := bchild h' (pre ++ [true]) key r in (v, ((pre ++ [false], h'), dl) :: p)
          | None => (None, [])
          end
        else
          match discard D E V H nbits ds r h' with
          | Some dr => let '(v, p) := bchild h' (pre ++ [false]) key l in (v, ((pre ++ [true], h'), dr) :: p)
          | None => (None, [])
          end.
    Proof. reflexivity. Qed.

    Lemma bfind_none h pre key t : HyperRefine.all_none D V t -> bfindW h pre key t = (None, []).
    Proof. intros Hn. destruct t as [|s l r]; [destruct h; reflexivity|]. destruct Hn as [-> _]. destruct h; reflexivity. Qed.

    Lemma bfind_leaf h pre key d l r k v : rslot D V l = Some (SKey D V k) -> rslot D V r = Some (SVal D V v) ->
      bfindW h pre key (BNode D V (Some (SLeaf D V d)) l r) = ((if key_eqb k key then Some v else None), []).
    Proof. intros Hl Hr. destruct h; cbn [bfind]; rewrite Hl, Hr; reflexivity. Qed.

    Lemma bfind_Rep h : forall pre t M key, Rep sC0 sA0 h pre t M -> bfindW h pre key t = sfind h pre M key.
    Proof.
      induction h as [h IH] using lt_wf_ind. intros pre t M key HR.
      destruct (Rep_view sC0 sA0 h pre t M HR)
        as [[-> Hn]|[(k & v & l & r & -> & Hl & -> & Hrl & Hrr)|(h' & l & r & -> & Hbr & -> & Hsl & Hsr)]].
      - rewrite sfind_nil. apply bfind_none. exact Hn.
      - rewrite (sfind_single h pre k v key Hl). apply bfind_leaf; assumption.
      - rewrite bfind_inner, (sfind_node h' pre M key Hbr).
        assert (Hchild : forall b ct M', Slot sC0 sA0 h' (pre ++ [b]) ct M' ->
                  discard D E V H nbits ds ct h' = Some (sh h' (pre ++ [b]) M') /\
                  bchild h' (pre ++ [b]) key ct = sfind h' (pre ++ [b]) M' key).
        { intros b ct M' Hs. destruct (Slot_view sC0 sA0 h' _ ct M' Hs) as (Hrd & HR').
          split; [exact (reads_hash D E V H limit nbits _ _ _ _ Hrd)|]. destruct M' as [|x M''].
          - pose proof (reads_empty D E V H limit nbits _ _ _ Hrd) as Hn.
            unfold bchild. rewrite (all_none_rslot D V ct Hn), sfind_nil. reflexivity.
          - pose proof (reads_some D E V H limit nbits _ _ _ _ Hrd ltac:(discriminate)) as Hn.
            rewrite <- (IH h' (Nat.lt_succ_diag_r h') _ _ _ key HR').
            unfold bchild. rewrite tab_load. destruct (rslot D V ct); [|contradiction]. destruct (Nat.eqb (h' mod 4) 0); reflexivity. }
        destruct (Hchild false l _ Hsl) as [Dl Cl]. destruct (Hchild true r _ Hsr) as [Dr Cr].
        rewrite Dl, Dr, Cl, Cr. reflexivity.
    Qed.

    Lemma bfind_A h : forall pre t M key,
      h <= limit -> RepA sA0 h pre t M -> bfindW h pre key t = sfind h pre M key.
    Proof using limit4 nbits4.
      (* nbits4: a premise of the statement that no step uses (DESIGN 3.4) *)
      intros pre t M key Hl HR. apply bfind_Rep. unfold Rep. rewrite (proj2 (Nat.ltb_ge _ _) Hl). exact HR.
    Qed.

    Hypothesis limit_pos : 0 < limit.

    Lemma bfind_C h : forall pre t M key,
      limit < h -> RepC sC0 sA0 h pre t M -> bfindW h pre key t = sfind h pre M key.
    Proof using limit4 nbits4 limit_pos.
      (* nbits4, limit_pos: premises of the statement that no step uses (DESIGN 3.4) *)
      intros pre t M key Hl HR. apply bfind_Rep. unfold Rep. rewrite (proj2 (Nat.ltb_lt _ _) Hl). exact HR.
    Qed.
  End OnTables.

  Lemma sfind_perm h : forall pre M M' key, Permutation M M' -> NoDup (map fst M) -> keys_ok pre M -> h + length pre = nbits ->
    sfind h pre M key = sfind h pre M' key.
  Proof using limit4 nbits4.
    (* limit4, nbits4: premises of the statement that no step uses (DESIGN 3.4) *)
    intros pre M M' key Hp Hn Hk Hlen.
    (* a node of sfind reads the hashes of the two halves as well: perm_halves goes over the pair *)
    refine (f_equal snd (perm_halves V nbits (fun h pre M => (sh h pre M, sfind h pre M key)) _ h pre M M' Hp Hn Hk Hlen)).
    intros h' p N N' H2 H2' [= S0 F0] [= S1 F1].
    pose proof (branches_many V limit (S h') N H2) as Hb. pose proof (branches_many V limit (S h') N' H2') as Hb'.
    rewrite (sh_node D E V H limit nbits h' p N Hb), (sh_node D E V H limit nbits h' p N' Hb'),
      (sfind_node h' p N key Hb), (sfind_node h' p N' key Hb'), S0, S1, F0, F1. reflexivity.
  Qed.

  Lemma sfind_spec h : forall pre M key, keys_ok pre M -> h + length pre = nbits -> length key = nbits ->
    sfind h pre M key =
      yfind D E V H h (skipn (nbits - h) ds) pre (ybuild D E V H limit h (skipn (nbits - h) ds) pre (ents V pre M)) (skipn (length pre) key) key.
  Proof using limit4 nbits4.
    (* limit4, nbits4: premises of the statement that no step uses (DESIGN 3.4) *)
    induction h as [h IH] using lt_wf_ind. intros pre M key Hk Hlen Hkey.
    destruct (stree_cases D E V H limit nbits h pre M Hk Hlen)
      as [[-> ->]|[(k & v & rest & -> & Hleaf & ->)|(h' & -> & Hbr & Hl' & K0 & K1 & ->)]].
    - rewrite sfind_nil, yfind_empty. reflexivity.
    - rewrite yfind_leaf. destruct Hleaf as [->|[-> Hl]]; [reflexivity|apply sfind_single; exact Hl].
    - rewrite (sfind_node h' pre M key Hbr).
      assert (Hkl : length pre < length key) by lia.
      rewrite (skipn_nth_cons false (length pre) key Hkl). change (nth (length pre) key false) with (bit_at pre key).
      cbn [yfind]. rewrite tl_skipn, hd_skipn. replace (S (nbits - S h')) with (nbits - h') by lia.
      pose proof (IH h' (Nat.lt_succ_diag_r h') _ _ key K1 (Hl' true) Hkey) as I1.
      pose proof (IH h' (Nat.lt_succ_diag_r h') _ _ key K0 (Hl' false) Hkey) as I0.
      rewrite app_length, Nat.add_1_r in I1, I0. rewrite <- I1, <- I0.
      pose proof (sh_spec D E V H limit nbits h' _ _ K1 (Hl' true)) as S1.
      pose proof (sh_spec D E V H limit nbits h' _ _ K0 (Hl' false)) as S0.
      unfold HyperBatch.dflt in S1, S0. rewrite <- S1, <- S0. reflexivity.
  Qed.

  Hypothesis limit_pos : 0 < limit.
  Hypothesis limit_lt : limit < nbits.

  (* C01.  HyperTree.QueryMembership on tables that represent the map m: the value and the audit path are those of the
     published construction over m *)
  Theorem hb_find_spec st m key :
    Represents D E V H limit nbits st m -> length key = nbits ->
    hb_find D E V H limit nbits ds st key = hyper_find D E V H nbits ds (ytree_of D E V H limit nbits ds m) key.
  Proof.
    intros (M & Hp & HnM & HkM & HR & _) Hkey. unfold hb_find.
    rewrite (load_cache D V limit st [] nbits limit_lt).
    rewrite (bfind_C st limit_pos nbits [] _ M key limit_lt HR).
    rewrite (sfind_perm nbits [] M m key Hp HnM HkM (Nat.add_0_r nbits)).
    rewrite (sfind_spec nbits [] m key (keys_ok_perm V nbits [] _ _ Hp HkM) (Nat.add_0_r nbits) Hkey).
    unfold hyper_find, ytree_of, ents. rewrite Nat.sub_diag. reflexivity.
  Qed.

  (* C01.  From the empty tables: after any sequence of calls the search answers as the published construction does *)
  Theorem hb_run_find calls key :
    Forall (fun kvs => kvs <> [] /\ Forall (fun kv => length (fst kv) = nbits) kvs) calls -> length key = nbits ->
    exists st', hb_run D E V H limit nbits (hinit D V) calls = Some (fst (spec_run D E V H limit nbits [] calls), st') /\
      hb_find D E V H limit nbits ds st' key =
        hyper_find D E V H nbits ds (ytree_of D E V H limit nbits ds (snd (spec_run D E V H limit nbits [] calls))) key.
  Proof.
    intros Hc Hkey.
    destruct (hb_run_spec D E V H limit nbits limit4 nbits4 limit_pos limit_lt calls (hinit D V) [] (hinit_Represents D E V H limit nbits) Hc) as (st' & E1 & E2).
    exists st'. split; [exact E1|]. apply hb_find_spec; assumption.
  Qed.
End HyperFind.
