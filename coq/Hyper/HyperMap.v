(* The key -> value map of HyperModel is known by its lookups: map_add_bulk m kvs looks up like kvs ++ m
   (map_add_bulk_lookup); the order of the listing matters only to map_add_bulk_fresh. *)
From QV Require Import Base.Util Base.Facts Base.HashSig Hyper.HyperModel Hyper.HyperProofs.

Section MapLemmas.
  Variable V : Type.
  Notation map_get := (map_get V).
  Notation map_set := (map_set V).
  Implicit Types (m l kvs : list (key * V)).

  Lemma map_get_assoc m k : map_get m k = assoc key_eqb k m.
  Proof. induction m as [|[k' v] m IH]; cbn [HyperModel.map_get assoc]; [reflexivity|]. rewrite IH. reflexivity. Qed.

  Lemma map_get_some_in m k w : map_get m k = Some w -> In (k, w) m.
  Proof. rewrite map_get_assoc. apply (assoc_Some_In key_eqb key_eqb_eq). Qed.

  Lemma map_get_none m k : map_get m k = None <-> ~ In k (map fst m).
  Proof. rewrite map_get_assoc. apply (assoc_None key_eqb key_eqb_eq). Qed.

  Lemma map_get_in m k w : NoDup (map fst m) -> (In (k, w) m <-> map_get m k = Some w).
  Proof.
    intros Hnd. split; [|apply map_get_some_in]. rewrite map_get_assoc. apply (assoc_NoDup_In key_eqb key_eqb_eq), Hnd.
  Qed.

  Lemma map_get_app m1 m2 k :
    map_get (m1 ++ m2) k = match map_get m1 k with Some w => Some w | None => map_get m2 k end.
  Proof. rewrite !map_get_assoc. apply assoc_app. Qed.

  Lemma map_get_dom m k : In k (map fst m) <-> exists w, map_get m k = Some w.
  Proof. rewrite map_get_assoc. apply assoc_dom, key_eqb_eq. Qed.

  (* distinct keys in the form hyper_complete asks for *)
  Lemma nodup_keys_uniq m : NoDup (map fst m) ->
    forall kv1 kv2, In kv1 m -> In kv2 m -> fst kv1 = fst kv2 -> kv1 = kv2.
  Proof.
    intros Hnd [k1 v1] [k2 v2] H1 H2 Heq. cbn in Heq. subst k2.
    apply (map_get_in m k1 v1 Hnd) in H1. apply (map_get_in m k1 v2 Hnd) in H2. congruence.
  Qed.

  Lemma map_get_set m k v k' :
    map_get (map_set m k v) k' = if key_eqb k' k then Some v else map_get m k'.
  Proof.
    induction m as [|[k0 v0] m IH]; cbn [HyperModel.map_set HyperModel.map_get].
    - destruct (key_eqb k' k); reflexivity.
    - destruct (key_eqb k k0) eqn:Hk.
      + apply key_eqb_eq in Hk. subst k0. cbn [HyperModel.map_get]. destruct (key_eqb k' k); reflexivity.
      + cbn [HyperModel.map_get]. destruct (key_eqb k' k0) eqn:Hk0.
        * apply key_eqb_eq in Hk0. subst k0. destruct (key_eqb k' k) eqn:Hkk; [|reflexivity].
          apply key_eqb_eq in Hkk. subst k'. rewrite key_eqb_refl in Hk. discriminate.
        * exact IH.
  Qed.

  Lemma map_set_keys m k v :
    map fst (map_set m k v) = if existsb (key_eqb k) (map fst m) then map fst m else map fst m ++ [k].
  Proof.
    induction m as [|[k0 v0] m IH]; cbn [HyperModel.map_set map fst existsb]; [reflexivity|].
    destruct (key_eqb k k0) eqn:Hk; cbn [orb map fst].
    - reflexivity.
    - rewrite IH. destruct (existsb (key_eqb k) (map fst m)); reflexivity.
  Qed.

  Lemma map_set_nodup m k v : NoDup (map fst m) -> NoDup (map fst (map_set m k v)).
  Proof.
    intros Hnd. rewrite map_set_keys. destruct (existsb (key_eqb k) (map fst m)) eqn:Hex; [exact Hnd|].
    apply NoDup_snoc; [exact Hnd|]. intros Hin. apply (existsb_eqb_In key_eqb key_eqb_eq) in Hin. congruence.
  Qed.

  Lemma map_set_fresh m k v : ~ In k (map fst m) -> map_set m k v = m ++ [(k, v)].
  Proof.
    induction m as [|[k0 v0] m IH]; intros Hn; cbn [HyperModel.map_set app]; [reflexivity|].
    destruct (key_eqb k k0) eqn:Hk.
    - apply key_eqb_eq in Hk. subst k0. exfalso. apply Hn. left. reflexivity.
    - f_equal. apply IH. intros Hin. apply Hn. right. exact Hin.
  Qed.

  Definition set_all m l : list (key * V) :=
    fold_left (fun acc kv => map_set acc (fst kv) (snd kv)) l m.

  Lemma set_all_cons m k v l : set_all m ((k, v) :: l) = set_all (map_set m k v) l.
  Proof. reflexivity. Qed.

  Lemma set_all_nodup l : forall m, NoDup (map fst m) -> NoDup (map fst (set_all m l)).
  Proof.
    induction l as [|[k v] l IH]; intros m Hnd; [exact Hnd|]. rewrite set_all_cons. apply IH, map_set_nodup, Hnd.
  Qed.

  Lemma set_all_lookup l : forall m k, NoDup (map fst l) -> map_get (set_all m l) k = map_get (l ++ m) k.
  Proof.
    induction l as [|[k0 v0] l IH]; intros m k Hnd; [reflexivity|].
    cbn [map fst] in Hnd. apply NoDup_cons_iff in Hnd. destruct Hnd as [Hk0 Hnd].
    rewrite set_all_cons, (IH _ _ Hnd), !map_get_app, map_get_set. cbn [app HyperModel.map_get].
    destruct (key_eqb k k0) eqn:Hk; [|reflexivity].
    (* k0 is set first and, its key being distinct from the others, never again *)
    apply key_eqb_eq in Hk. subst k0. apply map_get_none in Hk0. rewrite Hk0. reflexivity.
  Qed.

  Lemma set_all_fresh l : forall m,
    NoDup (map fst l) -> (forall k, In k (map fst l) -> ~ In k (map fst m)) -> set_all m l = m ++ l.
  Proof.
    induction l as [|[k v] l IH]; intros m Hnd Hf; [rewrite app_nil_r; reflexivity|].
    cbn [map fst] in Hnd. apply NoDup_cons_iff in Hnd. destruct Hnd as [Hk Hl].
    rewrite set_all_cons, map_set_fresh by (apply Hf; left; reflexivity).
    rewrite IH; [rewrite <- app_assoc; reflexivity|exact Hl|].
    intros k' Hin. rewrite map_app, in_app_iff. cbn. intros [Hm|[<-|[]]]; [exact (Hf k' (or_intror Hin) Hm)|exact (Hk Hin)].
  Qed.

  Lemma dedup_sub seen kvs kv : In kv (bulk_dedup V seen kvs) -> In kv kvs.
  Proof.
    revert seen. induction kvs as [|[k v] r IH]; intros seen; cbn [bulk_dedup]; [intros []|].
    destruct (existsb (key_eqb k) seen); [intros Hin; right; exact (IH _ Hin)|].
    intros [<-|Hin]; [left; reflexivity|right; exact (IH _ Hin)].
  Qed.

  Lemma dedup_nodup kvs : forall seen,
    NoDup (map fst (bulk_dedup V seen kvs)) /\ (forall k, In k (map fst (bulk_dedup V seen kvs)) -> ~ In k seen).
  Proof.
    induction kvs as [|[k v] r IH]; intros seen; cbn [bulk_dedup]; [split; [constructor|intros ? []]|].
    destruct (existsb (key_eqb k) seen) eqn:Hex; [exact (IH seen)|].
    destruct (IH (k :: seen)) as [Hnd Hns]. cbn [map fst]. split.
    - constructor; [|exact Hnd]. intros Hin. apply (Hns k Hin). left. reflexivity.
    - intros k' [<-|Hin]; [intros Hs; apply (existsb_eqb_In key_eqb key_eqb_eq) in Hs; congruence|].
      intros Hs. apply (Hns k' Hin). right. exact Hs.
  Qed.

  Lemma dedup_id kvs : forall seen,
    NoDup (map fst kvs) -> (forall k, In k (map fst kvs) -> ~ In k seen) -> bulk_dedup V seen kvs = kvs.
  Proof.
    induction kvs as [|[k v] r IH]; intros seen Hnd Hs; cbn [bulk_dedup]; [reflexivity|].
    cbn [map fst] in Hnd. apply NoDup_cons_iff in Hnd. destruct Hnd as [Hk Hr].
    destruct (existsb (key_eqb k) seen) eqn:Hex.
    - apply (existsb_eqb_In key_eqb key_eqb_eq) in Hex. exfalso. apply (Hs k); [left; reflexivity|exact Hex].
    - f_equal. apply IH; [exact Hr|]. intros k' Hin [<-|Hs']; [exact (Hk Hin)|]. apply (Hs k'); [right; exact Hin|exact Hs'].
  Qed.

  Lemma dedup_lookup kvs : forall seen k,
    map_get (bulk_dedup V seen kvs) k = if existsb (key_eqb k) seen then None else map_get kvs k.
  Proof.
    induction kvs as [|[k0 v0] r IH]; intros seen k; cbn [bulk_dedup HyperModel.map_get]; [destruct existsb; reflexivity|].
    destruct (existsb (key_eqb k0) seen) eqn:H0.
    - rewrite IH. destruct (existsb (key_eqb k) seen) eqn:Hs; [reflexivity|].
      destruct (key_eqb k k0) eqn:Hk; [|reflexivity]. apply key_eqb_eq in Hk. subst k0. congruence.
    - cbn [HyperModel.map_get]. rewrite IH. cbn [existsb]. destruct (key_eqb k k0) eqn:Hk; cbn [orb]; [|reflexivity].
      apply key_eqb_eq in Hk. subst k0. rewrite H0. reflexivity.
  Qed.

  Theorem map_add_bulk_lookup m kvs k : map_get (map_add_bulk V m kvs) k = map_get (kvs ++ m) k.
  Proof.
    unfold map_add_bulk. change (fold_left _ ?l m) with (set_all m l).
    rewrite set_all_lookup by apply dedup_nodup. rewrite !map_get_app, dedup_lookup. reflexivity.
  Qed.

  Lemma map_add_bulk_nodup m kvs : NoDup (map fst m) -> NoDup (map fst (map_add_bulk V m kvs)).
  Proof. apply set_all_nodup. Qed.

  Lemma map_add_bulk_keys m kvs k :
    In k (map fst (map_add_bulk V m kvs)) <-> In k (map fst kvs) \/ In k (map fst m).
  Proof.
    rewrite <- in_app_iff, <- map_app, !map_get_dom. setoid_rewrite map_add_bulk_lookup. reflexivity.
  Qed.

  Lemma map_add_bulk_fresh m kvs :
    NoDup (map fst kvs) -> (forall k, In k (map fst kvs) -> ~ In k (map fst m)) -> map_add_bulk V m kvs = m ++ kvs.
  Proof.
    intros Hnd Hf. unfold map_add_bulk. rewrite dedup_id; [|exact Hnd|intros ? _ []]. exact (set_all_fresh kvs m Hnd Hf).
  Qed.
End MapLemmas.
