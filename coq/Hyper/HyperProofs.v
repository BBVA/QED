(* Proofs about the hyper construction: the membership path the prover collects recomputes the root
   (completeness, C01 hyper half), for every key set, height and cache limit; conversely, a value the search returns is
   stored under the key (`yfind_value_in`, `hyper_find_in`); the equality tests on keys and positions decide equality. *)
From QV Require Import Base.Util Base.Facts Base.HashSig Base.TermEq Hyper.HyperModel.

(* key_eqb and hpos_eqb are the same fixpoints as bits_eqb and hp_eqb of Base/TermEq.v *)
Lemma key_eqb_eq a b : key_eqb a b = true <-> a = b.
Proof. exact (bits_eqb_eq a b). Qed.

Lemma key_eqb_refl k : key_eqb k k = true.
Proof. apply key_eqb_eq. reflexivity. Qed.

Lemma hpos_eqb_eq x y : hpos_eqb x y = true <-> x = y.
Proof. exact (hp_eqb_eq x y). Qed.

Section HyperProofs.
  Variables D E V : Type.
  Variable H : hin D E V -> D.
  Variable limit : nat.

  Notation ybuild := (ybuild D E V H limit).
  Notation yfind := (yfind D E V H).
  Notation yverify := (yverify D E V H).
  Notation thash := (thash D V).
  Notation child := (child V).

  Definition WfSub (h : nat) (sub : list (entry V)) : Prop :=
    (forall e, In e sub -> length (fst e) = h) /\
    (forall e1 e2, In e1 sub -> In e2 sub -> fst e1 = fst e2 -> e1 = e2).

  (* the subtree that ybuild makes for branch b of a node at height S h *)
  Notation ysub h ds pre sub b := (ybuild h (tl ds) (pre ++ [b%bool]) (child b sub)).

  Lemma in_child b (sub : list (entry V)) kb x : In (kb, x) (child b sub) <-> In (b :: kb, x) sub.
  Proof.
    unfold HyperModel.child. rewrite in_flat_map. split.
    - intros [[k y] [Hin Hm]]. cbn in Hm. destruct k as [|c k]; [destruct Hm|].
      destruct (Bool.eqb c b) eqn:Hcb; [|destruct Hm]. apply Bool.eqb_prop in Hcb. subst c.
      destruct Hm as [Hm|[]]. injection Hm as -> ->. exact Hin.
    - intros Hin. exists (b :: kb, x). split; [exact Hin|]. cbn. rewrite Bool.eqb_reflx. left. reflexivity.
  Qed.

  Lemma child_wf b h sub : WfSub (S h) sub -> WfSub h (child b sub).
  Proof.
    intros [Hlen Huniq]. split.
    - intros [kb x] Hin. apply in_child in Hin. specialize (Hlen _ Hin). cbn in *. lia.
    - intros [k1 x1] [k2 x2] H1 H2 Heq. cbn in Heq. subst k2.
      apply in_child in H1. apply in_child in H2.
      specialize (Huniq _ _ H1 H2 eq_refl). injection Huniq as ->. reflexivity.
  Qed.

  (* where ybuild makes a leaf of the first entry, there is no other entry *)
  Lemma wf_first h e rest : WfSub h (e :: rest) -> h = 0%nat \/ rest = [] -> forall e', In e' (e :: rest) -> e' = e.
  Proof.
    intros [Hlen Huniq] [->| ->] e' Hin.
    - apply Huniq; [exact Hin|left; reflexivity|].
      pose proof (Hlen _ Hin) as H1. pose proof (Hlen e (or_introl eq_refl)) as H2.
      destruct (fst e'), (fst e); try discriminate. reflexivity.
    - destruct Hin as [<-|[]]. reflexivity.
  Qed.

  Lemma ybuild_view h ds pre sub :
    (sub = [] /\ ybuild h ds pre sub = TEmpty) \/
    (exists kb0 k0 v0 rest, sub = (kb0, (k0, v0)) :: rest /\ (h = 0 \/ (rest = [] /\ h <= limit))%nat /\
       ybuild h ds pre sub = TLeaf k0 v0 (H (YLeaf v0 (pre, h)))) \/
    (exists h', h = S h' /\ (2 <= length sub \/ (sub <> [] /\ limit < h))%nat /\
       ybuild h ds pre sub =
         TNode (H (YNode (thash (hd (H YDef0) (tl ds)) (ysub h' ds pre sub true))
                         (thash (hd (H YDef0) (tl ds)) (ysub h' ds pre sub false)) (pre, h)))
               (ysub h' ds pre sub false) (ysub h' ds pre sub true)).
  Proof.
    destruct sub as [|[kb0 [k0 v0]] rest]; [left; split; [reflexivity|destruct h; reflexivity]|]. right.
    destruct h as [|h'].
    { (* repeat split closes the equations as well, ybuild's by conversion; the disjunction is left *)
      left. exists kb0, k0, v0, rest. repeat split. left. reflexivity. }
    cbn [HyperModel.ybuild]. destruct rest as [|e1 rest'].
    - destruct (Nat.leb (S h') limit) eqn:Hl.
      + left. exists kb0, k0, v0, []. repeat split. right. split; [reflexivity|apply Nat.leb_le; exact Hl].
      + right. exists h'. repeat split. right. split; [discriminate|apply Nat.leb_gt; exact Hl].
    - right. exists h'. repeat split. left. cbn. lia.
  Qed.

  Lemma thash_nonempty (t : ytree D V) d1 d2 : t <> TEmpty -> thash d1 t = thash d2 t.
  Proof. destruct t; [contradiction|reflexivity|reflexivity]. Qed.

  Lemma ybuild_nonempty h ds pre sub : sub <> [] -> ybuild h ds pre sub <> TEmpty.
  Proof.
    intros Hne. destruct (ybuild_view h ds pre sub) as [[Hs _]|[(kb0 & k0 & v0 & rest & _ & _ & ->)|(h' & _ & _ & ->)]];
      [contradiction|discriminate|discriminate].
  Qed.

  Lemma ysub_if h ds pre sub (b : bool) : (if b then ysub h ds pre sub true else ysub h ds pre sub false) = ysub h ds pre sub b.
  Proof. destruct b; reflexivity. Qed.

  Lemma yfind_empty h ds pre kb full : yfind h ds pre TEmpty kb full = (None, []).
  Proof. destruct h; reflexivity. Qed.

  Lemma yfind_leaf h ds pre k v x kb full :
    yfind h ds pre (TLeaf k v x) kb full = ((if key_eqb k full then Some v else None), []).
  Proof. destruct h; reflexivity. Qed.

  Lemma yfind_S h ds pre x l r b kb full :
    yfind (S h) ds pre (TNode x l r) (b :: kb) full =
      (fst (yfind h (tl ds) (pre ++ [b]) (if b then r else l) kb full),
       ((pre ++ [negb b], h), thash (hd (H YDef0) (tl ds)) (if b then l else r)) :: snd (yfind h (tl ds) (pre ++ [b]) (if b then r else l) kb full)).
  Proof. cbn [HyperModel.yfind]. destruct b; cbn [negb]; destruct (yfind h (tl ds) _ _ kb full); reflexivity. Qed.

  Lemma yverify_leaf pf w h pre kb : yverify pf (N.of_nat h) w h pre kb = Some (H (YLeaf w (pre, h))).
  Proof. destruct h; cbn [HyperModel.yverify]; rewrite N.leb_refl; reflexivity. Qed.

  Lemma yverify_S pf lh w h pre b kb : lh < N.of_nat (S h) ->
    yverify pf lh w (S h) pre (b :: kb) =
      match yverify pf lh w h (pre ++ [b]) kb, pf (pre ++ [negb b], h) with
      | Some x, Some sib => Some (H (if b then YNode x sib (pre, S h) else YNode sib x (pre, S h)))
      | _, _ => None
      end.
  Proof.
    intros Hl. cbn [HyperModel.yverify]. rewrite (proj2 (N.leb_gt _ _) Hl).
    destruct b; cbn [negb]; destruct (pf _); destruct (yverify pf lh w h _ kb); reflexivity.
  Qed.

  Lemma yfind_heights h : forall ds pre t kb full q d,
    In (q, d) (snd (yfind h ds pre t kb full)) -> (snd q < h)%nat.
  Proof.
    induction h as [|h IH]; intros ds pre t kb full q d Hin.
    - destruct t; destruct Hin.
    - destruct t as [| |x l r]; [destruct Hin|destruct Hin|]. destruct kb as [|b kb]; [destruct Hin|].
      rewrite yfind_S in Hin. destruct Hin as [Hin|Hin]; [injection Hin as <- _; cbn; lia|].
      specialize (IH _ _ _ _ _ _ _ Hin). lia.
  Qed.

  Lemma yfind_nodup h : forall ds pre t kb full, NoDup (map fst (snd (yfind h ds pre t kb full))).
  Proof.
    induction h as [|h IH]; intros ds pre t kb full.
    - destruct t; constructor.
    - destruct t as [| |x l r]; [constructor|constructor|]. destruct kb as [|b kb]; [constructor|].
      rewrite yfind_S. cbn [snd map fst]. constructor; [|apply IH].
      intros Hin. apply in_map_iff in Hin. destruct Hin as [[q d] [Hq Hin]]. cbn in Hq. subst q.
      apply yfind_heights in Hin. cbn in Hin. lia.
  Qed.

  (* d0 is arbitrary: the subtree holds the entry, so it is not empty and its default hash is never read *)
  Lemma yfind_complete h : forall ds pre sub kb k w (pf : hpos -> option D) d0,
    WfSub h sub -> In (kb, (k, w)) sub ->
    let '(v, p) := yfind h ds pre (ybuild h ds pre sub) kb k in
    v = Some w /\ (length p <= h)%nat /\
    ((forall q d, In (q, d) p -> pf q = Some d) ->
     yverify pf (N.of_nat (h - length p)) w h pre kb = Some (thash d0 (ybuild h ds pre sub))).
  Proof.
    (* the hypothesis is used at the predecessor only; h is not split first because ybuild_view does it *)
    induction h as [h IH] using lt_wf_ind. intros ds pre sub kb k w pf d0 Hwf Hin.
    destruct (ybuild_view h ds pre sub) as [[-> _]|[(kb0 & k0 & v0 & rest & -> & Hleaf & ->)|(h' & -> & _ & ->)]]; [destruct Hin| |].
    - (* a leaf: it holds the entry looked for *)
      assert (Hsame : (kb, (k, w)) = (kb0, (k0, v0))).
      { apply (wf_first h _ rest Hwf); [destruct Hleaf as [Hz|[Hr _]]; [left|right]; assumption|exact Hin]. }
      injection Hsame as -> -> ->. rewrite yfind_leaf, key_eqb_refl. cbn [length HyperModel.thash].
      rewrite Nat.sub_0_r, yverify_leaf. split; [reflexivity|]. split; [lia|reflexivity].
    - pose proof (proj1 Hwf _ Hin) as Hk. cbn in Hk. destruct kb as [|b kb]; [discriminate|].
      specialize (IH h' ltac:(lia) (tl ds) (pre ++ [b]) (child b sub) kb k w pf (hd (H YDef0) (tl ds))
                     (child_wf b h' _ Hwf) (proj2 (in_child b _ kb (k, w)) Hin)).
      rewrite yfind_S, ysub_if.
      destruct (yfind h' (tl ds) (pre ++ [b]) (ysub h' ds pre sub b) kb k) as [v' p']. destruct IH as (Hv & Hlp & Hver).
      cbn [fst snd length HyperModel.thash]. split; [exact Hv|]. split; [lia|]. intros Hpf.
      rewrite Nat.sub_succ, yverify_S by lia. rewrite Hver by (intros q d Hq; apply Hpf; right; exact Hq).
      rewrite (Hpf _ _ (or_introl eq_refl)). destruct b; reflexivity.
  Qed.

  Lemma yfind_value_in h : forall ds pre sub kb full w p,
    yfind h ds pre (ybuild h ds pre sub) kb full = (Some w, p) -> exists kb', In (kb', (full, w)) sub.
  Proof.
    induction h as [h IH] using lt_wf_ind. intros ds pre sub kb full w p Hf.
    destruct (ybuild_view h ds pre sub) as [[_ Ey]|[(kb0 & k0 & v0 & rest & -> & _ & Ey)|(h' & -> & _ & Ey)]]; rewrite Ey in Hf; clear Ey.
    - rewrite yfind_empty in Hf. discriminate.
    - rewrite yfind_leaf in Hf. destruct (key_eqb k0 full) eqn:Hk; [|discriminate]. apply key_eqb_eq in Hk. subst k0.
      injection Hf as <- _. exists kb0. left. reflexivity.
    - destruct kb as [|b kb]; [discriminate|]. rewrite yfind_S, ysub_if in Hf.
      destruct (yfind h' (tl ds) (pre ++ [b]) (ysub h' ds pre sub b) kb full) as [v' p'] eqn:Hr. injection Hf as -> _.
      destruct (IH h' ltac:(lia) _ _ _ _ _ _ _ Hr) as [kb' Hin]. exists (b :: kb'). apply in_child. exact Hin.
  Qed.

  Lemma leaf_height_small n np : (np <= n)%nat -> N.of_nat n < 65536 -> leaf_height n np = N.of_nat (n - np).
  Proof.
    intros Hle Hn. unfold leaf_height.
    rewrite (N.mod_small (N.of_nat np)) by lia.
    replace (N.of_nat n + 65536 - N.of_nat np) with (N.of_nat (n - np) + 1 * 65536) by lia.
    rewrite N.mod_add by lia. apply N.mod_small. lia.
  Qed.

  Lemma hyper_find_in n ds (m : list (key * V)) k w hp :
    hyper_find D E V H n ds (ytree_of D E V H limit n ds m) k = (Some w, hp) -> In (k, w) m.
  Proof.
    intros Hf. destruct (yfind_value_in _ _ _ _ _ _ _ _ Hf) as [kb' Hin].
    apply in_map_iff in Hin. destruct Hin as [[k0 w0] [[= _ -> ->] Hin]]. exact Hin.
  Qed.

  (* the listing [ytree_of] builds from: every pair under its key *)
  Lemma wfsub_of_map n (m : list (key * V)) :
    (forall kv, In kv m -> length (fst kv) = n) ->
    (forall kv1 kv2, In kv1 m -> In kv2 m -> fst kv1 = fst kv2 -> kv1 = kv2) ->
    WfSub n (map (fun kv : key * V => (fst kv, kv)) m).
  Proof.
    intros Hlen Huniq. split.
    - intros e He. apply in_map_iff in He. destruct He as [kv [<- Hkv]]. cbn. apply Hlen. exact Hkv.
    - intros e1 e2 H1 H2 Heq. apply in_map_iff in H1, H2. destruct H1 as [kv1 [<- Hk1]]. destruct H2 as [kv2 [<- Hk2]].
      cbn in Heq. rewrite (Huniq kv1 kv2 Hk1 Hk2 Heq). reflexivity.
  Qed.

  (* HyperTree.QueryMembership + QueryProof.Verify: for every key of the map the collected path recomputes
     the root digest, with the stored value *)
  Theorem hyper_complete n ds (m : list (key * V)) k w :
    (limit < n)%nat -> N.of_nat n < 65536 ->
    (forall kv, In kv m -> length (fst kv) = n) ->
    (forall kv1 kv2, In kv1 m -> In kv2 m -> fst kv1 = fst kv2 -> kv1 = kv2) ->
    In (k, w) m ->
    let t := ytree_of D E V H limit n ds m in
    let '(v, p) := hyper_find D E V H n ds t k in
    v = Some w /\ p <> [] /\
    hyper_root_of_proof D E V H n (hpath_get D p) (length p) k w = Some (yroot D E V H ds t).
  Proof.
    intros Hlim Hn Hlen Huniq Hin. cbn zeta. unfold hyper_find, ytree_of, hyper_root_of_proof, yroot.
    pose proof (wfsub_of_map n m Hlen Huniq) as Hwf.
    set (sub := map (fun kv : key * V => (fst kv, kv)) m) in *.
    assert (Hin' : In (k, (k, w)) sub) by exact (in_map _ m (k, w) Hin).
    (* pf := the collected path itself, read as a map *)
    pose proof (yfind_complete n ds [] sub k k w (hpath_get D (snd (yfind n ds [] (ybuild n ds [] sub) k k)))
                  (hd (H YDef0) ds) Hwf Hin') as Hc.
    pose proof (yfind_nodup n ds [] (ybuild n ds [] sub) k k) as Hnd.
    destruct (yfind n ds [] (ybuild n ds [] sub) k k) as [v p] eqn:Hf. cbn [snd] in Hc, Hnd.
    destruct Hc as (Hv & Hlp & Hver). split; [exact Hv|]. split.
    - (* the root is never a shortcut leaf because n > limit *)
      intros ->. pose proof (Hlen _ Hin) as Hk. cbn in Hk.
      destruct (ybuild_view n ds [] sub) as [[Hs _]|[(kb0 & k0 & v0 & rest & _ & Hleaf & _)|(n' & -> & _ & Ey)]].
      + rewrite Hs in Hin'. destruct Hin'.
      + lia.
      + rewrite Ey in Hf. destruct k as [|b k']; [discriminate Hk|]. rewrite yfind_S in Hf. discriminate Hf.
    - rewrite leaf_height_small by (exact Hlp || exact Hn). apply Hver.
      intros q d Hq. unfold hpath_get. apply (assoc_NoDup_In hpos_eqb hpos_eqb_eq).
      + rewrite map_rev. apply NoDup_rev. exact Hnd.
      + apply -> in_rev. exact Hq.
  Qed.
End HyperProofs.
