(* The batch-level hyper tree (Hyper/HyperBatch.v, the mirror of balloon/hyper's insertion code) against the published
   construction (Hyper/HyperModel.v): what it means for the cache and store tables to represent the sparse tree of a
   key->value map, and the insertion walk keeping that below the cache and through it. *)
From QV Require Import Base.Util Base.Facts Base.HashSig Hyper.HyperModel Hyper.HyperBatch Hyper.HyperProofs.

Local Open Scope nat_scope.

Section HyperRefine.
  Variables D E V : Type.
  Variable H : hin D E V -> D.
  Variable limit nbits : nat.
  Notation ds := (dlist D E V H nbits).
  Notation dflt := (dflt D E V H nbits ds).
  Notation bt := (bt D V).
  Notation slot := (slot D V).

  Definition M0 (pre : list bool) (M : list (key * V)) := filter (fun kv => negb (bit_at pre (fst kv))) M.
  Definition M1 (pre : list bool) (M : list (key * V)) := filter (fun kv => bit_at pre (fst kv)) M.

  Lemma M_split_ne pre (M : list (key * V)) : M <> [] -> M0 pre M <> [] \/ M1 pre M <> [].
  Proof.
    destruct M as [|x M']; [contradiction|]. intros _. unfold M0, M1. cbn [filter].
    destruct (bit_at pre (fst x)); cbn [negb]; [right|left]; discriminate.
  Qed.

  Lemma split_eq pre (L : list (key * V)) : split V pre L = (M0 pre L, M1 pre L).
  Proof. reflexivity. Qed.

  (* the specification hash of the part M of the map below the prefix pre, on full keys: thash of ybuild
     (HyperRefineSpec.sh_spec) *)
  Fixpoint sh (h : nat) (pre : list bool) (M : list (key * V)) {struct h} : D :=
    match M with
    | [] => dflt h
    | (k, v) :: rest =>
        match h with
        | O => H (YLeaf v (pre, O))
        | S h' =>
            let nd := H (YNode (sh h' (pre ++ [true]) (M1 pre M)) (sh h' (pre ++ [false]) (M0 pre M)) (pre, h)) in
            match rest with
            | [] => if Nat.leb h limit then H (YLeaf v (pre, h)) else nd
            | _ => nd
            end
        end
    end.

  Lemma sh_nil h pre : sh h pre [] = dflt h.
  Proof. destruct h; reflexivity. Qed.

  Lemma sh_single h pre k v : h <= limit -> sh h pre [(k, v)] = H (YLeaf v (pre, h)).
  Proof.
    intros Hl. destruct h as [|h']; [reflexivity|]. cbn [sh].
    rewrite (proj2 (Nat.leb_le _ _) Hl). reflexivity.
  Qed.

  (* when a non-empty part of the map is an inner node rather than a shortcut leaf *)
  Definition branches (h : nat) (M : list (key * V)) : Prop := 2 <= length M \/ (M <> [] /\ limit < h).

  Lemma branches_many h M : 2 <= length M -> branches h M.
  Proof. intros H2. left. exact H2. Qed.
  Lemma branches_above h M : M <> [] -> limit < h -> branches h M.
  Proof. intros Hne Hl. right. split; [exact Hne|exact Hl]. Qed.

  Lemma sh_node h' pre M : branches (S h') M ->
    sh (S h') pre M = H (YNode (sh h' (pre ++ [true]) (M1 pre M)) (sh h' (pre ++ [false]) (M0 pre M)) (pre, S h')).
  Proof.
    intros Hc. destruct M as [|[k v] [|x rest]].
    - destruct Hc as [Hc|[Hc _]]; [cbn in Hc; lia|contradiction].
    - destruct Hc as [Hc|[_ Hc]]; [cbn in Hc; lia|]. cbn [sh]. rewrite (proj2 (Nat.leb_gt _ _) Hc). reflexivity.
    - reflexivity.
  Qed.

  Fixpoint complete (n : nat) (t : bt) : Prop :=
    match n, t with
    | O, BNil _ _ => True
    | S k, BNode _ _ _ l r => complete k l /\ complete k r
    | _, _ => False
    end.
  Fixpoint all_none (t : bt) : Prop :=
    match t with BNil _ _ => True | BNode _ _ s l r => s = None /\ all_none l /\ all_none r end.
  (* only the root slot may be set: the key and value slots of a shortcut leaf *)
  Definition below_none (t : bt) : Prop :=
    match t with BNil _ _ => True | BNode _ _ _ l r => all_none l /\ all_none r end.

  Fixpoint is_prefix (a b : list bool) : bool :=
    match a, b with
    | [], _ => true
    | x :: a', y :: b' => Bool.eqb x y && is_prefix a' b'
    | _ :: _, [] => false
    end.
  Definition under (pre : list bool) (q : hpos) : Prop := is_prefix pre (fst q) = true.

  Lemma is_prefix_iff a : forall b, is_prefix a b = true <-> exists c, b = a ++ c.
  Proof.
    induction a as [|x a IH]; intros b; cbn.
    - split; [exists b; reflexivity|reflexivity].
    - destruct b as [|y b]; [split; [discriminate|intros [c Hc]; discriminate]|].
      rewrite andb_true_iff, eqb_true_iff, IH. split.
      + intros [-> [c ->]]. exists c. reflexivity.
      + intros [c Hc]. injection Hc as -> ->. split; [reflexivity|exists c; reflexivity].
  Qed.

  Lemma is_prefix_app a b c : is_prefix (a ++ b) c = true -> is_prefix a c = true.
  Proof. rewrite !is_prefix_iff. intros [d ->]. exists (b ++ d). symmetry. apply app_assoc. Qed.
  Lemma is_prefix_refl a : is_prefix a a = true.
  Proof. apply is_prefix_iff. exists []. symmetry. apply app_nil_r. Qed.

  Notation rslot := (rslot D V).
  Notation set_root := (set_root D V).

  Lemma complete_set_root n t x : complete n t -> complete n (set_root t x).
  Proof. destruct n, t; cbn; auto. Qed.
  Lemma complete_bempty n : complete n (bempty D V n).
  Proof. induction n; cbn; auto. Qed.
  Lemma all_none_bempty n : all_none (bempty D V n).
  Proof. induction n; cbn; auto. Qed.
  Lemma all_none_rslot t : all_none t -> rslot t = None.
  Proof. destruct t; cbn; [reflexivity|]. intros [-> _]. reflexivity. Qed.
  Lemma all_none_below t : all_none t -> below_none t.
  Proof. destruct t; cbn; tauto. Qed.
  Lemma below_none_set_root t x : below_none t -> below_none (set_root t x).
  Proof. destruct t; cbn; tauto. Qed.
  Lemma below_none_reset t : below_none t -> all_none (set_root t None).
  Proof. destruct t; cbn; tauto. Qed.
  Lemma rslot_set_root t x n : complete (S n) t -> rslot (set_root t x) = x.
  Proof. destruct t; cbn; [tauto|reflexivity]. Qed.
  Lemma shortcut_batch_complete d k v : complete 5 (shortcut_at D V (empty_batch D V) d k v).
  Proof. cbn. repeat split. Qed.

  (* levels of the subtree of a slot at height h that is not a batch root *)
  Definition lv (h : nat) : nat := h mod 4 + 1.

  Lemma lv_S (isroot : bool) h' :
    (isroot = true -> S h' mod 4 = 0) -> (isroot = false -> S h' mod 4 <> 0) ->
    (if isroot then 5 else lv (S h')) = S (lv h').
  Proof.
    intros Hr1 Hr2. unfold lv.
    pose proof (Nat.div_mod (S h') 4 ltac:(lia)). pose proof (Nat.div_mod h' 4 ltac:(lia)).
    pose proof (Nat.mod_upper_bound (S h') 4 ltac:(lia)). pose proof (Nat.mod_upper_bound h' 4 ltac:(lia)).
    destruct isroot; [specialize (Hr1 eq_refl)|specialize (Hr2 eq_refl)]; lia.
  Qed.

  Lemma complete_S n t : complete (S n) t <-> exists s l r, t = BNode D V s l r /\ complete n l /\ complete n r.
  Proof.
    destruct t as [|s l r]; cbn [complete]; split; try tauto.
    - intros (s & l & r & Heq & _). discriminate.
    - intros Hc. exists s, l, r. tauto.
    - intros (s' & l' & r' & Heq & Hc). injection Heq as _ -> ->. exact Hc.
  Qed.

  Lemma rslot_set_root_lv h t x : complete (lv h) t -> rslot (set_root t x) = x.
  Proof. unfold lv. rewrite Nat.add_1_r. apply rslot_set_root. Qed.

  Lemma under_app pre b q : under (pre ++ [b]) q -> under pre q.
  Proof. apply is_prefix_app. Qed.
  Lemma under_self pre h : under pre (pre, h).
  Proof. apply is_prefix_refl. Qed.
  Lemma not_under_self pre h b : ~ under (pre ++ [b]) (pre, h).
  Proof.
    unfold under. rewrite is_prefix_iff. intros [c Hc]. apply (f_equal (@length bool)) in Hc.
    rewrite !app_length in Hc. cbn in Hc. lia.
  Qed.
  Lemma under_sibling pre b q : under (pre ++ [b]) q -> ~ under (pre ++ [negb b]) q.
  Proof.
    unfold under. rewrite !is_prefix_iff. intros [d Hd] [e He]. rewrite Hd, <- !app_assoc in He.
    apply app_inv_head in He. destruct b; discriminate.
  Qed.

  (* a child slot at height h': at a batch boundary (h' mod 4 = 0) it holds the hash of the part M' and the batch
     itself is looked up (RL), elsewhere the subtree continues in the same batch (RI) *)
  Definition SlotG (RI : bt -> list (key * V) -> Prop) (RL : list (key * V) -> Prop) (Em : Prop)
             (h' : nat) (pre' : list bool) (ct : bt) (M' : list (key * V)) : Prop :=
    if Nat.eqb (h' mod 4) 0 then
      match M' with
      | [] => all_none ct /\ Em
      | _ => rslot ct = Some (SHash _ _ (sh h' pre' M')) /\ RL M'
      end
    else RI ct M'.

  Lemma SlotG_mono (RI RI' : bt -> list (key * V) -> Prop) (RL RL' : list (key * V) -> Prop) (Em Em' : Prop) h' pre' ct M' :
    (RI ct M' -> RI' ct M') -> (h' mod 4 = 0 -> RL M' -> RL' M') -> (Em -> Em') ->
    SlotG RI RL Em h' pre' ct M' -> SlotG RI' RL' Em' h' pre' ct M'.
  Proof. unfold SlotG. destruct (Nat.eqb_spec (h' mod 4) 0); [destruct M'|]; tauto. Qed.

  (* what a slot at a batch root says of the batch looked up; of an empty part it says only Em, hence the second premise *)
  Lemma SlotG_loaded (RI : bt -> list (key * V) -> Prop) (RL : list (key * V) -> Prop) (Em : Prop) h' pre' ct M' : h' mod 4 = 0 ->
    (Em -> RL []) -> SlotG RI RL Em h' pre' ct M' -> RL M'.
  Proof.
    intros Hb HE. unfold SlotG. rewrite Hb. cbn [Nat.eqb]. destruct M' as [|x M''].
    - intros [_ He]. exact (HE He).
    - intros [_ HR]. exact HR.
  Qed.

  Lemma SlotG_root (RI : bt -> list (key * V) -> Prop) (RL : list (key * V) -> Prop) (Em : Prop) h' pre' ct M' : h' mod 4 = 0 ->
    M' <> [] -> rslot ct = Some (SHash _ _ (sh h' pre' M')) -> RL M' -> SlotG RI RL Em h' pre' ct M'.
  Proof.
    intros Hb Hne Hr HR. unfold SlotG. rewrite Hb. cbn [Nat.eqb]. destruct M' as [|x M'']; [contradiction|]. split; [exact Hr|exact HR].
  Qed.

  (* what the parent reads off a subtree or a slot: getProvidedHash / getDefaultHash, and whether anything is there *)
  Definition reads (t : bt) (h : nat) (pre : list bool) (M : list (key * V)) : Prop :=
    discard D E V H nbits ds t h = Some (sh h pre M) /\ (M = [] -> all_none t) /\ (M <> [] -> rslot t <> None).

  Lemma reads_nil t h pre : all_none t -> reads t h pre [].
  Proof.
    intros Hn. unfold reads, discard. rewrite (all_none_rslot t Hn), sh_nil.
    split; [reflexivity|]. split; [intros _; exact Hn|intros C; contradiction].
  Qed.

  Lemma reads_set t h pre M s :
    rslot t = Some s -> discard D E V H nbits ds t h = Some (sh h pre M) -> M <> [] -> reads t h pre M.
  Proof.
    intros Hr Hd Hne. unfold reads. split; [exact Hd|]. split; [intros HM; contradiction|intros _; rewrite Hr; discriminate].
  Qed.

  Lemma reads_hash t h pre M : reads t h pre M -> discard D E V H nbits ds t h = Some (sh h pre M).
  Proof. intros [Hd _]. exact Hd. Qed.
  Lemma reads_empty t h pre : reads t h pre [] -> all_none t.
  Proof. intros (_ & He & _). exact (He eq_refl). Qed.
  Lemma reads_some t h pre M : reads t h pre M -> M <> [] -> rslot t <> None.
  Proof. intros (_ & _ & Hs). exact Hs. Qed.

  Lemma SlotG_reads (RI : bt -> list (key * V) -> Prop) (RL : list (key * V) -> Prop) (Em : Prop) h' pre' ct M' :
    (RI ct M' -> reads ct h' pre' M') -> SlotG RI RL Em h' pre' ct M' -> reads ct h' pre' M'.
  Proof.
    intros HI. unfold SlotG. destruct (Nat.eqb (h' mod 4) 0); [|exact HI]. destruct M' as [|x M''].
    - intros [Hn _]. exact (reads_nil ct h' pre' Hn).
    - intros [Hr _]. apply (reads_set _ _ _ _ _ Hr); [|discriminate]. unfold discard. rewrite Hr. reflexivity.
  Qed.

  (* sA, sC: the batches of HyperTable and of the cache, as functions of the position.
     RepA is used at heights h <= limit only (a premise of the lemmas, not of the definition), where a single entry is a
     shortcut leaf at any height.  Its emptiness clause ranges over under (pre ++ [b]), not under pre: a shortcut leaf
     at a batch root lives in the batch sA (pre, h) itself *)
  Fixpoint RepA (sA : hpos -> bt) (h : nat) (pre : list bool) (t : bt) (M : list (key * V)) {struct h} : Prop :=
    match M with
    | [] => all_none t /\ (forall q, under pre q -> all_none (sA q))
    | [(k, v)] =>
        (exists l r, t = BNode _ _ (Some (SLeaf _ _ (H (YLeaf v (pre, h))))) l r /\
                    rslot l = Some (SKey _ _ k) /\ rslot r = Some (SVal _ _ v) /\ below_none l /\ below_none r) /\
        (forall b q, under (pre ++ [b]) q -> all_none (sA q))
    | _ =>
        match h with
        | O => False
        | S h' =>
            let slotA (pre' : list bool) (ct : bt) (M' : list (key * V)) : Prop :=
              if Nat.eqb (h' mod 4) 0 then
                match M' with
                | [] => all_none ct /\ (forall q, under pre' q -> all_none (sA q))
                | _ => rslot ct = Some (SHash _ _ (sh h' pre' M')) /\ RepA sA h' pre' (sA (pre', h')) M'
                end
              else RepA sA h' pre' ct M' in
            exists l r, t = BNode _ _ (Some (SHash _ _ (sh h pre M))) l r /\
                        slotA (pre ++ [false]) l (M0 pre M) /\ slotA (pre ++ [true]) r (M1 pre M)
        end
    end.

  Definition SlotA (sA : hpos -> bt) (h' : nat) (pre' : list bool) (ct : bt) (M' : list (key * V)) : Prop :=
    if Nat.eqb (h' mod 4) 0 then
      match M' with
      | [] => all_none ct /\ (forall q, under pre' q -> all_none (sA q))
      | _ => rslot ct = Some (SHash _ _ (sh h' pre' M')) /\ RepA sA h' pre' (sA (pre', h')) M'
      end
    else RepA sA h' pre' ct M'.

  Lemma SlotA_G sA h' pre' ct M' :
    SlotA sA h' pre' ct M' =
    SlotG (RepA sA h' pre') (RepA sA h' pre' (sA (pre', h'))) (forall q, under pre' q -> all_none (sA q)) h' pre' ct M'.
  Proof. reflexivity. Qed.

  Lemma RepA_node sA h' pre t M : 2 <= length M ->
    RepA sA (S h') pre t M <->
    exists l r, t = BNode _ _ (Some (SHash _ _ (sh (S h') pre M))) l r /\
                SlotA sA h' (pre ++ [false]) l (M0 pre M) /\ SlotA sA h' (pre ++ [true]) r (M1 pre M).
  Proof.
    intros Hl. destruct M as [|[k v] [|x rest]]; cbn in Hl; try lia. reflexivity.
  Qed.

  Lemma RepA_nil sA h pre t : RepA sA h pre t [] <-> all_none t /\ (forall q, under pre q -> all_none (sA q)).
  Proof. destruct h; reflexivity. Qed.

  Lemma RepA_single sA h pre t k v : RepA sA h pre t [(k, v)] <->
    (exists l r, t = BNode _ _ (Some (SLeaf _ _ (H (YLeaf v (pre, h))))) l r /\
                rslot l = Some (SKey _ _ k) /\ rslot r = Some (SVal _ _ v) /\ below_none l /\ below_none r) /\
    (forall b q, under (pre ++ [b]) q -> all_none (sA q)).
  Proof. destruct h; reflexivity. Qed.

  Lemma RepA_below_empty sA h pre t M : length M <= 1 -> RepA sA h pre t M -> forall b q, under (pre ++ [b]) q -> all_none (sA q).
  Proof.
    intros Hl HR b q Hq. destruct M as [|[k v] [|y M2]]; [|apply RepA_single in HR; exact (proj2 HR b q Hq)|cbn in Hl; lia].
    apply RepA_nil in HR. exact (proj2 HR q (under_app _ _ _ Hq)).
  Qed.

  Lemma SlotA_nil sA h' pre' ct : SlotA sA h' pre' ct [] <-> all_none ct /\ (forall q, under pre' q -> all_none (sA q)).
  Proof. unfold SlotA. destruct (Nat.eqb (h' mod 4) 0); [reflexivity|apply RepA_nil]. Qed.

  Lemma SlotA_inner sA h' pre' ct M' : h' mod 4 <> 0 -> SlotA sA h' pre' ct M' <-> RepA sA h' pre' ct M'.
  Proof. intros Hb. unfold SlotA. apply Nat.eqb_neq in Hb. rewrite Hb. reflexivity. Qed.

  Lemma SlotA_loaded sA h' pre' ct M' : h' mod 4 = 0 -> SlotA sA h' pre' ct M' -> RepA sA h' pre' (sA (pre', h')) M'.
  Proof.
    intros Hb. rewrite SlotA_G. apply SlotG_loaded; [exact Hb|]. intros He.
    apply RepA_nil. split; [apply He, under_self|exact He].
  Qed.

  Lemma SlotA_root sA h' pre' ct M' d : h' mod 4 = 0 -> M' <> [] -> complete (lv h') ct -> d = sh h' pre' M' ->
    RepA sA h' pre' (sA (pre', h')) M' -> SlotA sA h' pre' (set_root ct (Some (SHash _ _ d))) M'.
  Proof.
    intros Hb Hne Hc -> HR. rewrite SlotA_G. apply SlotG_root; [exact Hb|exact Hne|apply (rslot_set_root_lv h'); exact Hc|exact HR].
  Qed.

  Definition agree (pre : list bool) (s s' : hpos -> bt) : Prop := forall q, under pre q -> s q = s' q.
  Lemma agree_app pre b s s' : agree pre s s' -> agree (pre ++ [b]) s s'.
  Proof. intros Hag q Hq. exact (Hag q (under_app _ _ _ Hq)). Qed.
  Lemma agree_none pre s s' : agree pre s s' -> (forall q, under pre q -> all_none (s q)) -> forall q, under pre q -> all_none (s' q).
  Proof. intros Hag Hn q Hq. rewrite <- (Hag q Hq). exact (Hn q Hq). Qed.

  (* the slots at height h' follow the subtrees at height h': the step of RepA_ext, and SlotA_ext after it *)
  Lemma SlotA_ext_step h' :
    (forall sA sA' pre t M, agree pre sA sA' -> RepA sA h' pre t M -> RepA sA' h' pre t M) ->
    forall sA sA' pre' ct M', agree pre' sA sA' -> SlotA sA h' pre' ct M' -> SlotA sA' h' pre' ct M'.
  Proof.
    intros IH sA sA' pre' ct M' Hag. rewrite !SlotA_G, <- (Hag (pre', h') (under_self _ _)).
    apply SlotG_mono; [apply IH; exact Hag|intros _; apply IH; exact Hag|apply agree_none; exact Hag].
  Qed.

  Lemma RepA_ext h : forall sA sA' pre t M, agree pre sA sA' -> RepA sA h pre t M -> RepA sA' h pre t M.
  Proof.
    assert (Hsmall : forall h0 sA sA' pre t M, length M <= 1 -> agree pre sA sA' -> RepA sA h0 pre t M -> RepA sA' h0 pre t M).
    { intros h0 sA sA' pre t M Hl Hag HR. destruct M as [|[k v] [|y M2]]; [| |cbn in Hl; lia].
      - apply RepA_nil in HR. apply RepA_nil. split; [exact (proj1 HR)|exact (agree_none _ _ _ Hag (proj2 HR))].
      - apply RepA_single in HR. apply RepA_single. split; [exact (proj1 HR)|]. intros b.
        exact (agree_none _ _ _ (agree_app pre b _ _ Hag) (proj2 HR b)). }
    induction h as [|h' IH]; intros sA sA' pre t M Hag HR;
      (destruct (Nat.le_gt_cases (length M) 1) as [H1|H2]; [exact (Hsmall _ _ _ _ _ _ H1 Hag HR)|]).
    - (* two or more entries at height 0: RepA is False *)
      destruct M as [|[k v] [|y M2]]; [cbn in H2; lia|cbn in H2; lia|destruct HR].
    - apply RepA_node in HR; [|exact H2]. apply RepA_node; [exact H2|].
      destruct HR as (l & r & -> & Hl & Hr). exists l, r. split; [reflexivity|].
      split; [revert Hl|revert Hr]; apply (SlotA_ext_step h' IH), agree_app, Hag.
  Qed.

  Lemma SlotA_ext sA sA' h' pre' ct M' : agree pre' sA sA' -> SlotA sA h' pre' ct M' -> SlotA sA' h' pre' ct M'.
  Proof. apply SlotA_ext_step, RepA_ext. Qed.

  (* full-length keys that go through the node at prefix pre *)
  Definition keys_ok (pre : list bool) (L : list (key * V)) : Prop :=
    Forall (fun kv => length (fst kv) = nbits /\ is_prefix pre (fst kv) = true) L.

  Lemma is_prefix_snoc pre k : is_prefix pre k = true -> length pre < length k ->
    is_prefix (pre ++ [nth (length pre) k false]) k = true.
  Proof.
    rewrite !is_prefix_iff. intros [c ->] Hl. rewrite app_length in Hl. destruct c as [|x c]; [cbn in Hl; lia|].
    rewrite nth_middle. exists c. apply app_snoc.
  Qed.

  Lemma length_child h' (pre : list bool) b : S h' + length pre = nbits -> h' + length (pre ++ [b]) = nbits.
  Proof. rewrite app_length. cbn. lia. Qed.

  Lemma keys_ok_filter pre L f : keys_ok pre L -> keys_ok pre (filter f L).
  Proof. apply incl_Forall, incl_filter. Qed.

  Lemma keys_ok_bit pre L b f : length pre < nbits -> keys_ok pre L ->
    (forall kv, f kv = true -> bit_at pre (fst kv) = b) -> keys_ok (pre ++ [b]) (filter f L).
  Proof.
    unfold keys_ok. rewrite !Forall_forall. intros Hl Hk Hf x Hx. apply filter_In in Hx. destruct Hx as [Hx Hb].
    destruct (Hk x Hx) as [H1 H2]. split; [exact H1|]. rewrite <- (Hf x Hb). apply is_prefix_snoc; [exact H2|lia].
  Qed.
  Lemma keys_ok_M0 pre L : length pre < nbits -> keys_ok pre L -> keys_ok (pre ++ [false]) (M0 pre L).
  Proof. intros Hl Hk. apply keys_ok_bit; [exact Hl|exact Hk|]. intros kv Hb. apply negb_true_iff. exact Hb. Qed.
  Lemma keys_ok_M1 pre L : length pre < nbits -> keys_ok pre L -> keys_ok (pre ++ [true]) (M1 pre L).
  Proof. intros Hl Hk. apply keys_ok_bit; [exact Hl|exact Hk|]. intros kv Hb. exact Hb. Qed.

  Lemma nodup_filter_fst (L : list (key * V)) f : NoDup (map fst L) -> NoDup (map fst (filter f L)).
  Proof.
    induction L as [|x L IH]; intros Hn; [constructor|]. cbn in *. inversion Hn as [|? ? Hx Hn']; subst.
    destruct (f x); [|exact (IH Hn')]. constructor; [|exact (IH Hn')].
    intros Hin. exact (Hx (incl_map fst (incl_filter f L) _ Hin)).
  Qed.

  Lemma is_prefix_full a k : is_prefix a k = true -> length k = length a -> k = a.
  Proof. rewrite is_prefix_iff. intros [c ->] Hl. rewrite app_length in Hl. destruct c; [apply app_nil_r|cbn in Hl; lia]. Qed.

  Lemma keys_full_le1 pre (L : list (key * V)) : length pre = nbits -> keys_ok pre L -> NoDup (map fst L) -> length L <= 1.
  Proof.
    intros Hl Hk Hn. destruct L as [|[k1 v1] [|[k2 v2] L]]; cbn; try lia. exfalso.
    inversion Hk as [|? ? [A1 A2] Hk']; subst. inversion Hk' as [|? ? [B1 B2] _]; subst. cbn in *.
    assert (k1 = pre) by (apply is_prefix_full; [exact A2|lia]). assert (k2 = pre) by (apply is_prefix_full; [exact B2|lia]).
    inversion Hn as [|? ? Hx _]; subst. apply Hx. left. reflexivity.
  Qed.

  Definition inb (k : key) (L : list (key * V)) : bool := existsb (fun kv => key_eqb (fst kv) k) L.
  (* M with the entries of L added, those of L winning on a common key *)
  Definition mrg (M L : list (key * V)) : list (key * V) := filter (fun kv => negb (inb (fst kv) L)) M ++ L.

  Lemma inb_filter k (L : list (key * V)) (f : key -> bool) :
    f k = true -> inb k (filter (fun kv => f (fst kv)) L) = inb k L.
  Proof.
    intros Hf. unfold inb. induction L as [|[k' v'] L IH]; [reflexivity|]. cbn [filter fst existsb].
    destruct (f k') eqn:Hk'; cbn [existsb fst]; rewrite IH; [reflexivity|].
    destruct (key_eqb k' k) eqn:He; [|reflexivity]. apply key_eqb_eq in He. congruence.
  Qed.

  Lemma filter_mrg (f : key -> bool) M L :
    filter (fun kv => f (fst kv)) (mrg M L) = mrg (filter (fun kv => f (fst kv)) M) (filter (fun kv => f (fst kv)) L).
  Proof.
    unfold mrg. rewrite filter_app, !filter_filter. f_equal. apply filter_ext. intros [k v]. cbn [fst].
    destruct (f k) eqn:Hf; [rewrite (inb_filter k L f Hf), andb_true_r; reflexivity|apply andb_false_r].
  Qed.

  Lemma M0_mrg pre M L : M0 pre (mrg M L) = mrg (M0 pre M) (M0 pre L).
  Proof. exact (filter_mrg (fun k => negb (bit_at pre k)) M L). Qed.
  Lemma M1_mrg pre M L : M1 pre (mrg M L) = mrg (M1 pre M) (M1 pre L).
  Proof. exact (filter_mrg (fun k => bit_at pre k) M L). Qed.

  Lemma mrg_nil_r M : mrg M [] = M.
  Proof. unfold mrg. rewrite app_nil_r. apply filter_all. reflexivity. Qed.
  Lemma mrg_nil_l L : mrg [] L = L.
  Proof. reflexivity. Qed.

  Lemma inb_in k (L : list (key * V)) : inb k L = true <-> In k (map fst L).
  Proof.
    unfold inb. rewrite existsb_exists. split.
    - intros [x [Hx He]]. apply key_eqb_eq in He. subst. apply in_map. exact Hx.
    - intros Hin. apply in_map_iff in Hin. destruct Hin as [x [<- Hx]]. exists x. split; [exact Hx|apply key_eqb_refl].
  Qed.

  Lemma keys_ok_mrg pre M L : keys_ok pre M -> keys_ok pre L -> keys_ok pre (mrg M L).
  Proof. intros HM HL. unfold mrg, keys_ok. apply Forall_app. split; [apply keys_ok_filter; exact HM|exact HL]. Qed.

  Lemma nodup_mrg M L : NoDup (map fst M) -> NoDup (map fst L) -> NoDup (map fst (mrg M L)).
  Proof.
    intros HM HL. unfold mrg. rewrite map_app. apply NoDup_app. split; [apply nodup_filter_fst; exact HM|]. split; [exact HL|].
    intros x Q1 Q2. apply in_map_iff in Q1. destruct Q1 as [y [<- Hy]]. apply filter_In in Hy. destruct Hy as [_ Hy].
    apply negb_true_iff in Hy. apply inb_in in Q2. congruence.
  Qed.

  Lemma length_mrg_ge M L : NoDup (map fst M) -> length M <= length (mrg M L).
  Proof.
    intros HM. rewrite <- (map_length fst M), <- (map_length fst (mrg M L)). apply NoDup_incl_length; [exact HM|].
    intros k Hk. unfold mrg. rewrite map_app, in_app_iff. destruct (inb k L) eqn:Hi; [right; apply inb_in; exact Hi|left].
    apply in_map_iff in Hk. destruct Hk as ([k' v] & <- & Hin). apply in_map, filter_In.
    split; [exact Hin|]. rewrite Hi. reflexivity.
  Qed.

  Lemma mrg_ne M L : L <> [] -> mrg M L <> [].
  Proof. unfold mrg. intros Hne Hq. apply app_eq_nil in Hq. exact (Hne (proj2 Hq)). Qed.

  Lemma merge_stored_mrg L k0 v0 : merge_stored V L k0 v0 = mrg [(k0, v0)] L.
  Proof.
    unfold merge_stored, mrg, inb. cbn [filter fst]. destruct (existsb _ L); reflexivity.
  Qed.

  Lemma mrg_full pre M k v : length pre = nbits -> keys_ok pre M -> NoDup (map fst M) -> keys_ok pre [(k, v)] ->
    mrg M [(k, v)] = [(k, v)].
  Proof.
    intros Hl HkM HnM HkL.
    pose proof (keys_full_le1 pre _ Hl (keys_ok_mrg pre M _ HkM HkL) (nodup_mrg M [(k, v)] HnM ltac:(repeat constructor; tauto))) as Hle.
    unfold mrg in *. rewrite app_length in Hle. destruct (filter _ M); [reflexivity|cbn in Hle; lia].
  Qed.

  Notation wr := (wr D V).

  Lemma tget_tset t : forall p b q, tget D V (tset D V t p b) q = if hpos_eqb q p then b else tget D V t q.
  Proof.
    induction t as [|[p0 c] t IH]; intros p b q; unfold tget in *.
    - cbn. destruct (hpos_eqb q p); reflexivity.
    - cbn [tset]. destruct (hpos_eqb p p0) eqn:Hp.
      + apply hpos_eqb_eq in Hp. subst p0. cbn [assoc]. destruct (hpos_eqb q p); reflexivity.
      + cbn [assoc]. destruct (hpos_eqb q p0) eqn:Hq.
        * destruct (hpos_eqb q p) eqn:Hqp; [|reflexivity]. apply hpos_eqb_eq in Hqp. congruence.
        * exact (IH p b q).
  Qed.

  Definition upd_fun (s : hpos -> bt) (p : hpos) (b : bt) : hpos -> bt := fun q => if hpos_eqb q p then b else s q.
  Definition ap1 (s : hpos -> bt) (w : wr) : hpos -> bt :=
    match w with WStore _ _ p b => upd_fun s p b | _ => s end.
  Definition ap (s : hpos -> bt) (w : list wr) : hpos -> bt := fold_left ap1 w s.
  Definition apC1 (s : hpos -> bt) (w : wr) : hpos -> bt :=
    match w with WCache _ _ p b => upd_fun s p b | _ => s end.
  Definition apC (s : hpos -> bt) (w : list wr) : hpos -> bt := fold_left apC1 w s.

  Definition wr_pos (x : wr) : hpos * bt := match x with WCache _ _ p b | WTile _ _ p b | WStore _ _ p b => (p, b) end.
  (* writes of whatever kind: the C is for the walk through the cache, not for cache writes only *)
  Definition wr_okC (pre : list bool) (w : list wr) : Prop :=
    Forall (fun x => under pre (fst (wr_pos x)) /\ complete 5 (snd (wr_pos x))) w.
  Definition wr_ok (pre : list bool) (w : list wr) : Prop :=
    Forall (fun x => match x with WStore _ _ p b => under pre p /\ complete 5 b | _ => False end) w.

  Lemma wr_ok_single pre h b : complete 5 b -> wr_ok pre [WStore _ _ (pre, h) b].
  Proof. intros Hc. constructor; [|constructor]. split; [apply under_self|exact Hc]. Qed.
  Lemma wr_ok_okC pre w : wr_ok pre w -> wr_okC pre w.
  Proof. apply Forall_impl. intros [p b|p b|p b]; tauto. Qed.
  Lemma wr_okC_weaken pre b w : wr_okC (pre ++ [b]) w -> wr_okC pre w.
  Proof. apply Forall_impl. intros x [H1 H2]. split; [exact (under_app _ _ _ H1)|exact H2]. Qed.
  Lemma wr_ok_weaken pre b w : wr_ok (pre ++ [b]) w -> wr_ok pre w.
  Proof. apply Forall_impl. intros [p c|p c|p c]; try tauto. intros [H1 H2]. split; [exact (under_app _ _ _ H1)|exact H2]. Qed.
  Lemma wr_okC_complete pre w : wr_okC pre w -> Forall (fun x => complete 5 (snd (wr_pos x))) w.
  Proof. apply Forall_impl. tauto. Qed.

  (* the writes of the two children and of the node itself, in the interpreter's order *)
  Lemma Forall_node {A} (P : A -> Prop) w1 w2 wroot : Forall P w1 -> Forall P w2 -> Forall P wroot -> Forall P (w2 ++ w1 ++ wroot).
  Proof. rewrite !Forall_app. tauto. Qed.

  Definition untouched (w : list wr) (q : hpos) : Prop := Forall (fun x => fst (wr_pos x) <> q) w.
  Lemma wr_okC_untouched pre w q : wr_okC pre w -> ~ under pre q -> untouched w q.
  Proof. intros Hw Hq. revert Hw. apply Forall_impl. intros x [Hx _] Heq. apply Hq. rewrite <- Heq. exact Hx. Qed.

  (* one table (the store, the cache) as a function of the position, after a list of writes: kind picks the writes
     that go to it, a1 applies one write *)
  Section Apply.
    Variable kind : wr -> bool.
    Variable a1 : (hpos -> bt) -> wr -> hpos -> bt.
    Hypothesis a1_eq : forall s x q, a1 s x q = if kind x && hpos_eqb q (fst (wr_pos x)) then snd (wr_pos x) else s q.
    Notation apg s w := (fold_left a1 w s).

    Lemma apg_congr w : forall s s' q, s q = s' q -> apg s w q = apg s' w q.
    Proof. induction w as [|x w IH]; intros s s' q Hq; [exact Hq|]. apply IH. rewrite !a1_eq, Hq. reflexivity. Qed.

    Lemma apg_frame w : forall s q, untouched w q -> apg s w q = s q.
    Proof.
      induction w as [|x w IH]; intros s q Hn; [reflexivity|]. inversion Hn as [|? ? Hx Hn']; subst. cbn [fold_left].
      rewrite (IH _ q Hn'), a1_eq. destruct (hpos_eqb q (fst (wr_pos x))) eqn:He; [|rewrite andb_false_r; reflexivity].
      apply hpos_eqb_eq in He. congruence.
    Qed.

    Lemma apg_view pre hh w1 w2 wroot s b :
      wr_okC (pre ++ [false]) w1 -> wr_okC (pre ++ [true]) w2 -> Forall (fun x => fst (wr_pos x) = (pre, hh)) wroot ->
      agree (pre ++ [b]) (apg s (if b then w2 else w1)) (apg s (w2 ++ w1 ++ wroot)).
    Proof.
      intros H1 H2 Hr q Hq. symmetry.
      assert (Ur : untouched wroot q).
      { revert Hr. apply Forall_impl. intros x -> <-. exact (not_under_self _ _ _ Hq). }
      destruct b; rewrite !fold_left_app.
      - rewrite (apg_frame wroot), (apg_frame w1); [reflexivity|exact (wr_okC_untouched _ _ _ H1 (under_sibling pre true q Hq))|exact Ur].
      - rewrite (apg_frame wroot) by exact Ur. apply apg_congr, apg_frame. exact (wr_okC_untouched _ _ _ H2 (under_sibling pre false q Hq)).
    Qed.

    Lemma apg_other w : Forall (fun y => kind y = false) w -> forall s q, apg s w q = s q.
    Proof. induction 1 as [|y w Hy _ IH]; intros s q; [reflexivity|]. cbn [fold_left]. rewrite IH, a1_eq, Hy. reflexivity. Qed.

    Lemma apg_last w x rest s : kind x = true -> Forall (fun y => kind y = false) rest -> apg s (w ++ x :: rest) (fst (wr_pos x)) = snd (wr_pos x).
    Proof.
      intros Hk Ht. rewrite fold_left_app. cbn [fold_left].
      rewrite (apg_other rest Ht), a1_eq, Hk, (proj2 (hpos_eqb_eq _ _) eq_refl). reflexivity.
    Qed.

    Lemma apg_complete w : Forall (fun x => complete 5 (snd (wr_pos x))) w ->
      forall s, (forall q, complete 5 (s q)) -> forall q, complete 5 (apg s w q).
    Proof.
      induction 1 as [|x w Hx _ IH]; intros s Hs q; [exact (Hs q)|]. apply IH. intros q'. rewrite a1_eq.
      destruct (kind x && hpos_eqb q' (fst (wr_pos x))); [exact Hx|exact (Hs q')].
    Qed.

    Variable tbl : hstate D V -> list (hpos * bt).
    Hypothesis tbl_eq : forall st x, tbl (apply_wr D V st x) = if kind x then tset D V (tbl st) (fst (wr_pos x)) (snd (wr_pos x)) else tbl st.
    Lemma apg_after w : forall st q, tget D V (tbl (fold_left (apply_wr D V) w st)) q = apg (tget D V (tbl st)) w q.
    Proof.
      induction w as [|x w IH]; intros st q; [reflexivity|]. cbn [fold_left]. rewrite IH. apply apg_congr.
      rewrite a1_eq, tbl_eq. destruct (kind x); [apply tget_tset|reflexivity].
    Qed.
  End Apply.

  Definition is_store (x : wr) : bool := match x with WStore _ _ _ _ => true | _ => false end.
  Definition is_cache (x : wr) : bool := match x with WCache _ _ _ _ => true | _ => false end.
  Lemma ap1_eq s x q : ap1 s x q = if is_store x && hpos_eqb q (fst (wr_pos x)) then snd (wr_pos x) else s q.
  Proof. destruct x; reflexivity. Qed.
  Lemma ap_single_same s p b : ap s [WStore _ _ p b] p = b.
  Proof. exact (apg_last _ _ ap1_eq [] (WStore _ _ p b) [] s eq_refl (Forall_nil _)). Qed.
  Lemma ap_single_under s pre h x b q : under (pre ++ [b]) q -> ap s [WStore _ _ (pre, h) x] q = s q.
  Proof.
    intros Hq. apply (apg_frame _ _ ap1_eq). constructor; [|constructor]. intros <-. exact (not_under_self _ _ _ Hq).
  Qed.
  Lemma apC1_eq s x q : apC1 s x q = if is_cache x && hpos_eqb q (fst (wr_pos x)) then snd (wr_pos x) else s q.
  Proof. destruct x; reflexivity. Qed.

  Lemma RepA_assemble sA pre h' l1 r1 w1 w2 wroot M :
    2 <= length M ->
    wr_okC (pre ++ [false]) w1 -> wr_okC (pre ++ [true]) w2 -> Forall (fun x => fst (wr_pos x) = (pre, S h')) wroot ->
    SlotA (ap sA w1) h' (pre ++ [false]) l1 (M0 pre M) -> SlotA (ap sA w2) h' (pre ++ [true]) r1 (M1 pre M) ->
    RepA (ap sA (w2 ++ w1 ++ wroot)) (S h') pre (BNode _ _ (Some (SHash _ _ (sh (S h') pre M))) l1 r1) M.
  Proof.
    intros H2 O1 O2 Or Hl Hr. apply RepA_node; [exact H2|]. exists l1, r1. split; [reflexivity|].
    split; [revert Hl|revert Hr]; apply SlotA_ext.
    - exact (apg_view _ _ ap1_eq pre (S h') w1 w2 wroot sA false O1 O2 Or).
    - exact (apg_view _ _ ap1_eq pre (S h') w1 w2 wroot sA true O1 O2 Or).
  Qed.

  (* The same above the limit (h > limit in every use): no shortcut leaf there, so a single entry is an inner node
     like any other.  The emptiness clause asks all_none (sC q) for every q under pre, heights <= limit included: more
     than a walk reads, but it makes RepC depend on the cache through emptiness and the batch roots only (RepC_gen).
     At a batch boundary the slot hands over to the store when h' is the limit: the `if Nat.ltb limit h'` *)
  Fixpoint RepC (sC sA : hpos -> bt) (h : nat) (pre : list bool) (t : bt) (M : list (key * V)) {struct h} : Prop :=
    match M with
    | [] => all_none t /\ (forall q, under pre q -> all_none (sC q) /\ all_none (sA q))
    | _ =>
        match h with
        | O => False
        | S h' =>
            let slotC (pre' : list bool) (ct : bt) (M' : list (key * V)) : Prop :=
              if Nat.eqb (h' mod 4) 0 then
                match M' with
                | [] => all_none ct /\ (forall q, under pre' q -> all_none (sC q) /\ all_none (sA q))
                | _ => rslot ct = Some (SHash _ _ (sh h' pre' M')) /\
                       (if Nat.ltb limit h' then RepC sC sA h' pre' (sC (pre', h')) M' else RepA sA h' pre' (sA (pre', h')) M')
                end
              else RepC sC sA h' pre' ct M' in
            exists l r, t = BNode _ _ (Some (SHash _ _ (sh h pre M))) l r /\
                        slotC (pre ++ [false]) l (M0 pre M) /\ slotC (pre ++ [true]) r (M1 pre M)
        end
    end.

  Definition SlotC (sC sA : hpos -> bt) (h' : nat) (pre' : list bool) (ct : bt) (M' : list (key * V)) : Prop :=
    SlotG (RepC sC sA h' pre')
          (fun M' => if Nat.ltb limit h' then RepC sC sA h' pre' (sC (pre', h')) M' else RepA sA h' pre' (sA (pre', h')) M')
          (forall q, under pre' q -> all_none (sC q) /\ all_none (sA q)) h' pre' ct M'.

  Lemma RepC_nil sC sA h pre t : RepC sC sA h pre t [] <-> all_none t /\ (forall q, under pre q -> all_none (sC q) /\ all_none (sA q)).
  Proof. destruct h; reflexivity. Qed.

  Lemma RepC_node sC sA h' pre t M : M <> [] ->
    RepC sC sA (S h') pre t M <->
    exists l r, t = BNode _ _ (Some (SHash _ _ (sh (S h') pre M))) l r /\
                SlotC sC sA h' (pre ++ [false]) l (M0 pre M) /\ SlotC sC sA h' (pre ++ [true]) r (M1 pre M).
  Proof. intros Hne. destruct M as [|x M']; [contradiction|]. reflexivity. Qed.

  (* the representation above the limit looks at the store below its prefix, at the cache only at the batch roots
     between the limit and h, and otherwise only asks which cached batches are empty: two caches alike in this *)
  Definition alike (h : nat) (pre : list bool) (s s' : hpos -> bt) : Prop :=
    (forall q, under pre q -> all_none (s q) -> all_none (s' q)) /\
    (forall q, under pre q -> limit < snd q -> snd q < h -> snd q mod 4 = 0 -> s q = s' q).
  Lemma alike_app h pre b s s' : alike h pre s s' -> alike h (pre ++ [b]) s s'.
  Proof. intros [HN HE]. split; intros q Hq; [apply HN|apply HE]; exact (under_app _ _ _ Hq). Qed.
  Lemma alike_S h pre s s' : alike (S h) pre s s' -> alike h pre s s'.
  Proof. intros [HN HE]. split; [exact HN|]. intros q Hq A B. apply HE; [exact Hq|exact A|lia]. Qed.
  Lemma agree_alike h pre s s' : agree pre s s' -> alike h pre s s'.
  Proof. intros Hag. split; intros q Hq; [rewrite (Hag q Hq); tauto|intros _ _ _; exact (Hag q Hq)]. Qed.
  Lemma alike_none h pre sC sC' sA sA' : alike h pre sC sC' -> agree pre sA sA' ->
    (forall q, under pre q -> all_none (sC q) /\ all_none (sA q)) -> forall q, under pre q -> all_none (sC' q) /\ all_none (sA' q).
  Proof. intros [HN _] HA Hn q Hq. rewrite <- (HA q Hq). split; [apply (HN q Hq)|]; apply (Hn q Hq). Qed.

  (* the step of RepC_gen, and SlotC_ext after it *)
  Lemma SlotC_gen_step h' :
    (forall sC sC' sA sA' pre t M, alike h' pre sC sC' -> agree pre sA sA' -> RepC sC sA h' pre t M -> RepC sC' sA' h' pre t M) ->
    forall sC sC' sA sA' pre' ct M',
      alike (S h') pre' sC sC' -> agree pre' sA sA' -> SlotC sC sA h' pre' ct M' -> SlotC sC' sA' h' pre' ct M'.
  Proof.
    intros IH sC sC' sA sA' pre' ct M' HC HA. pose proof (alike_S _ _ _ _ HC) as HC'.
    apply SlotG_mono; [apply IH; assumption| |exact (alike_none _ _ _ _ _ _ HC HA)].
    intros Hb. destruct (Nat.ltb limit h') eqn:Hlt.
    - (* a cached batch root between the limit and S h' *)
      rewrite <- (proj2 HC (pre', h')); [apply (IH sC sC' sA sA'); assumption|apply under_self|apply Nat.ltb_lt; exact Hlt|cbn; lia|exact Hb].
    - (* a stored batch at the limit *)
      rewrite <- (HA _ (under_self _ _)). apply RepA_ext. exact HA.
  Qed.

  Lemma RepC_gen h : forall sC sC' sA sA' pre t M,
    alike h pre sC sC' -> agree pre sA sA' -> RepC sC sA h pre t M -> RepC sC' sA' h pre t M.
  Proof.
    assert (Hnil : forall h0 sC sC' sA sA' pre t, alike h0 pre sC sC' -> agree pre sA sA' -> RepC sC sA h0 pre t [] -> RepC sC' sA' h0 pre t []).
    { intros h0 sC sC' sA sA' pre t HC HA HR. apply RepC_nil in HR. apply RepC_nil.
      split; [exact (proj1 HR)|exact (alike_none _ _ _ _ _ _ HC HA (proj2 HR))]. }
    induction h as [|h' IH]; intros sC sC' sA sA' pre t M HC HA HR; (destruct M as [|x M']; [exact (Hnil _ _ _ _ _ _ _ HC HA HR)|]).
    - (* height 0, a non-empty part: both sides are False *)
      exact HR.
    - (* `apply ->`, here and wherever the part and the height are both constructors: HR then converts to both sides of
         the iff, and `apply .. in` would take the `<-` half and leave HR folded *)
      apply -> RepC_node in HR; [|discriminate]. apply RepC_node; [discriminate|].
      destruct HR as (l & r & -> & Hl & Hr). exists l, r. split; [reflexivity|].
      split; [revert Hl|revert Hr]; (apply (SlotC_gen_step h' IH); [apply alike_app; exact HC|apply agree_app; exact HA]).
  Qed.

  Lemma RepC_ext h sC sC' sA sA' pre t M :
    agree pre sC sC' -> agree pre sA sA' -> RepC sC sA h pre t M -> RepC sC' sA' h pre t M.
  Proof. intros HC. apply RepC_gen, agree_alike, HC. Qed.

  Lemma SlotC_ext sC sC' sA sA' h' pre' ct M' :
    agree pre' sC sC' -> agree pre' sA sA' -> SlotC sC sA h' pre' ct M' -> SlotC sC' sA' h' pre' ct M'.
  Proof. intros HC. apply (SlotC_gen_step h' (RepC_gen h')), agree_alike, HC. Qed.

  Lemma SlotC_nil sC sA h' pre' ct :
    SlotC sC sA h' pre' ct [] <-> all_none ct /\ (forall q, under pre' q -> all_none (sC q) /\ all_none (sA q)).
  Proof. unfold SlotC, SlotG. destruct (Nat.eqb (h' mod 4) 0); [reflexivity|apply RepC_nil]. Qed.

  (* the two child slots of a represented node, also when nothing is below it *)
  Lemma RepC_slots sC sA h' pre s l r M : RepC sC sA (S h') pre (BNode D V s l r) M ->
    SlotC sC sA h' (pre ++ [false]) l (M0 pre M) /\ SlotC sC sA h' (pre ++ [true]) r (M1 pre M).
  Proof.
    intros HR. destruct M as [|x M'].
    - apply RepC_nil in HR. destruct HR as [(_ & Hnl & Hnr) He].
      split; apply SlotC_nil; (split; [assumption|]); intros q Hq; exact (He q (under_app _ _ _ Hq)).
    - apply -> RepC_node in HR; [|discriminate]. destruct HR as (l' & r' & Heq & Hsl & Hsr). injection Heq as _ -> ->. split; assumption.
  Qed.

  Lemma SlotC_inner sC sA h' pre' ct M' : h' mod 4 <> 0 -> SlotC sC sA h' pre' ct M' <-> RepC sC sA h' pre' ct M'.
  Proof. intros Hb. unfold SlotC, SlotG. apply Nat.eqb_neq in Hb. rewrite Hb. reflexivity. Qed.

  Lemma SlotC_loaded sC sA h' pre' ct M' : h' mod 4 = 0 -> SlotC sC sA h' pre' ct M' ->
    if Nat.ltb limit h' then RepC sC sA h' pre' (sC (pre', h')) M' else RepA sA h' pre' (sA (pre', h')) M'.
  Proof.
    intros Hb. unfold SlotC. apply SlotG_loaded; [exact Hb|]. intros He.
    destruct (Nat.ltb limit h').
    - apply RepC_nil. split; [apply He, under_self|exact He].
    - apply RepA_nil. split; [apply He, under_self|intros q Hq; apply (He q Hq)].
  Qed.

  Lemma SlotC_root sC sA h' pre' ct M' d : h' mod 4 = 0 -> M' <> [] -> complete (lv h') ct -> d = sh h' pre' M' ->
    (if Nat.ltb limit h' then RepC sC sA h' pre' (sC (pre', h')) M' else RepA sA h' pre' (sA (pre', h')) M') ->
    SlotC sC sA h' pre' (set_root ct (Some (SHash _ _ d))) M'.
  Proof.
    intros Hb Hne Hc -> HR. unfold SlotC. apply SlotG_root; [exact Hb|exact Hne|apply (rslot_set_root_lv h'); exact Hc|exact HR].
  Qed.

  Lemma RepA_reads sA h pre t M : h <= limit -> RepA sA h pre t M -> reads t h pre M.
  Proof.
    intros Hl HR. destruct M as [|[k v] [|y M2]].
    - apply RepA_nil in HR. exact (reads_nil t h pre (proj1 HR)).
    - apply RepA_single in HR. destruct HR as [(l & r & -> & _) _].
      eapply reads_set; [reflexivity| |discriminate]. rewrite (sh_single h pre k v Hl). reflexivity.
    - destruct h as [|h']; [destruct HR|]. apply -> RepA_node in HR; [|cbn; lia]. destruct HR as (l & r & -> & _).
      eapply reads_set; [reflexivity|reflexivity|discriminate].
  Qed.

  (* above the limit or not: RepC has no leaf shape *)
  Lemma RepC_reads sC sA h pre t M : RepC sC sA h pre t M -> reads t h pre M.
  Proof.
    intros HR. destruct M as [|x M'].
    - apply RepC_nil in HR. exact (reads_nil t h pre (proj1 HR)).
    - destruct h as [|h']; [destruct HR|]. apply -> RepC_node in HR; [|discriminate]. destruct HR as (l & r & -> & _).
      eapply reads_set; [reflexivity|reflexivity|discriminate].
  Qed.

  Lemma SlotA_reads sA h' pre' ct M' : h' <= limit -> SlotA sA h' pre' ct M' -> reads ct h' pre' M'.
  Proof. intros Hl. rewrite SlotA_G. apply SlotG_reads. apply RepA_reads. exact Hl. Qed.

  Lemma SlotC_reads sC sA h' pre' ct M' : SlotC sC sA h' pre' ct M' -> reads ct h' pre' M'.
  Proof. unfold SlotC. apply SlotG_reads. apply RepC_reads. Qed.

  Lemma RepC_assemble sC sA pre h' l1 r1 w1 w2 wroot M :
    M <> [] ->
    wr_okC (pre ++ [false]) w1 -> wr_okC (pre ++ [true]) w2 -> Forall (fun x => fst (wr_pos x) = (pre, S h')) wroot ->
    SlotC (apC sC w1) (ap sA w1) h' (pre ++ [false]) l1 (M0 pre M) -> SlotC (apC sC w2) (ap sA w2) h' (pre ++ [true]) r1 (M1 pre M) ->
    RepC (apC sC (w2 ++ w1 ++ wroot)) (ap sA (w2 ++ w1 ++ wroot)) (S h') pre (BNode _ _ (Some (SHash _ _ (sh (S h') pre M))) l1 r1) M.
  Proof.
    intros Hne O1 O2 Or Hl Hr. apply RepC_node; [exact Hne|]. exists l1, r1. split; [reflexivity|].
    split.
    - revert Hl. apply SlotC_ext.
      + exact (apg_view _ _ apC1_eq pre (S h') w1 w2 wroot sC false O1 O2 Or).
      + exact (apg_view _ _ ap1_eq pre (S h') w1 w2 wroot sA false O1 O2 Or).
    - revert Hr. apply SlotC_ext.
      + exact (apg_view _ _ apC1_eq pre (S h') w1 w2 wroot sC true O1 O2 Or).
      + exact (apg_view _ _ ap1_eq pre (S h') w1 w2 wroot sA true O1 O2 Or).
  Qed.

  Section ChildStep.
    Variable st : hstate D V.
    Variable rec : bool -> list bool -> list (key * V) -> bt -> bool -> option (res D V).
    Notation childW := (childf D E V H limit nbits ds st rec).

    (* the two ways leaves go below a batch boundary: the walk continues at the root of the batch found there, or
       (below the cache) a single leaf gets a batch of its own *)
    Definition via (c : bool) (h' : nat) (pre' : list bool) (lvs : list (key * V)) (ct : bt) : option (res D V) :=
      match rec c pre' lvs (load D V limit st (pre', h')) true with
      | Some (d, _, w) => Some (d, set_root ct (Some (SHash _ _ d)), w)
      | None => None
      end.
    Definition fresh (h' : nat) (pre' : list bool) (k0 : key) (v0 : V) (ct : bt) : option (res D V) :=
      let d := H (YLeaf v0 (pre', h')) in
      Some (d, set_root ct (Some (SHash _ _ d)), [WStore _ _ (pre', h') (shortcut_at D V (empty_batch D V) d k0 v0)]).

    Lemma childf_nil c h' pre' ct :
      childW c h' pre' [] ct = option_map (fun d => (d, ct, [])) (discard D E V H nbits ds ct h').
    Proof. reflexivity. Qed.

    Lemma childf_inner c h' pre' lvs ct : h' mod 4 <> 0 -> lvs <> [] -> childW c h' pre' lvs ct = rec c pre' lvs ct false.
    Proof.
      intros Hb Hne. apply Nat.eqb_neq in Hb. destruct lvs as [|[k0 v0] rest]; [contradiction|]. unfold childf.
      destruct c; [rewrite Hb; reflexivity|]. destruct h' as [|h'']; [discriminate Hb|]. rewrite Hb. reflexivity.
    Qed.

    Lemma childf_root_cached h' pre' lvs ct : h' mod 4 = 0 -> lvs <> [] ->
      childW true h' pre' lvs ct = via (Nat.ltb limit h') h' pre' lvs ct.
    Proof. intros Hb Hne. destruct lvs as [|[k0 v0] rest]; [contradiction|]. unfold childf, via. rewrite Hb. reflexivity. Qed.

    Lemma childf_root_store h'' pre' k0 v0 rest ct : S h'' mod 4 = 0 ->
      childW false (S h'') pre' ((k0, v0) :: rest) ct =
        match rest, rslot ct with
        | [], None => fresh (S h'') pre' k0 v0 ct
        | _, _ => via false (S h'') pre' ((k0, v0) :: rest) ct
        end.
    Proof. intros Hb. unfold childf, via, fresh. rewrite Hb. destruct rest, (rslot ct); reflexivity. Qed.

    Lemma childf_bottom pre' k0 v0 ct : childW false 0 pre' [(k0, v0)] ct = fresh 0 pre' k0 v0 ct.
    Proof. reflexivity. Qed.
  End ChildStep.

  Hypothesis limit4 : limit mod 4 = 0.

  Lemma above_limit x : limit <= x -> x mod 4 <> 0 -> limit < x.
  Proof. intros Hl Hb. destruct (Nat.eq_dec x limit) as [->|Hn]; [destruct (Hb limit4)|lia]. Qed.

  Hypothesis nbits4 : nbits mod 4 = 0.

  Section WalkA.
    Variable st : hstate D V.
    Notation nodeW := (node D E V H limit nbits ds st).
    Notation childW := (childf D E V H limit nbits ds st).
    Notation innerW := (innerf D E V H limit nbits ds st).

    Definition sA0 : hpos -> bt := fun q => tget D V (hs_store D V st) q.
    Hypothesis store_wf : forall q, complete 5 (sA0 q).

    Lemma load_store pre' h' : h' <= limit -> load D V limit st (pre', h') = sA0 (pre', h').
    Proof. intros Hl. unfold load, sA0. cbn [snd]. rewrite (proj2 (Nat.ltb_ge _ _) Hl). reflexivity. Qed.

    Definition node_spec (h : nat) : Prop :=
      forall pre L t isroot M,
        h + length pre = nbits -> h <= limit ->
        (isroot = true -> h mod 4 = 0) -> (isroot = false -> h mod 4 <> 0) ->
        complete (if isroot then 5 else lv h) t ->
        RepA sA0 h pre t M ->
        L <> [] -> keys_ok pre L -> NoDup (map fst L) -> keys_ok pre M -> NoDup (map fst M) ->
        exists d t' w, nodeW h false pre L t isroot = Some (d, t', w) /\
          d = sh h pre (mrg M L) /\
          complete (if isroot then 5 else lv h) t' /\
          wr_ok pre w /\
          RepA (ap sA0 w) h pre t' (mrg M L) /\
          (isroot = true -> ap sA0 w (pre, h) = t').

    Definition child_spec (h' : nat) : Prop :=
      forall pre' Lb ct M',
        h' + length pre' = nbits -> h' <= limit ->
        complete (lv h') ct ->
        SlotA sA0 h' pre' ct M' ->
        keys_ok pre' Lb -> NoDup (map fst Lb) -> keys_ok pre' M' -> NoDup (map fst M') ->
        exists d ct' w, childW (nodeW h') false h' pre' Lb ct = Some (d, ct', w) /\
          d = sh h' pre' (mrg M' Lb) /\
          complete (lv h') ct' /\
          wr_ok pre' w /\
          SlotA (ap sA0 w) h' pre' ct' (mrg M' Lb).

    (* the conclusions of the two specifications, for the lemmas about one case of the walk *)
    Definition nodeA_post (h : nat) (pre : list bool) (isroot : bool) (ML : list (key * V)) (r : option (res D V)) : Prop :=
      exists d t' w, r = Some (d, t', w) /\ d = sh h pre ML /\ complete (if isroot then 5 else lv h) t' /\ wr_ok pre w /\
        RepA (ap sA0 w) h pre t' ML /\ (isroot = true -> ap sA0 w (pre, h) = t').
    Definition childA_post (h' : nat) (pre' : list bool) (ML : list (key * V)) (r : option (res D V)) : Prop :=
      exists d ct' w, r = Some (d, ct', w) /\ d = sh h' pre' ML /\ complete (lv h') ct' /\ wr_ok pre' w /\ SlotA (ap sA0 w) h' pre' ct' ML.

    (* at both uses mrg M' [(k0, v0)] is [(k0, v0)]: M' is empty, or at the bottom holds at most the entry being replaced *)
    Lemma fresh_child h' pre' ct k0 v0 M' :
      h' mod 4 = 0 -> h' <= limit -> complete (lv h') ct ->
      SlotA sA0 h' pre' ct M' -> length M' <= 1 ->
      childA_post h' pre' [(k0, v0)] (fresh h' pre' k0 v0 ct).
    Proof.
      intros Hb Hl Hc Hs H1. pose proof (RepA_below_empty _ _ _ _ _ H1 (SlotA_loaded _ _ _ _ _ Hb Hs)) as He. unfold fresh.
      set (d := H (YLeaf v0 (pre', h'))). set (b := shortcut_at D V (empty_batch D V) d k0 v0).
      assert (Hd : d = sh h' pre' [(k0, v0)]) by (symmetry; apply sh_single; exact Hl).
      exists d, (set_root ct (Some (SHash _ _ d))), [WStore _ _ (pre', h') b].
      split; [reflexivity|]. split; [exact Hd|]. split; [apply complete_set_root; exact Hc|].
      split; [apply wr_ok_single, shortcut_batch_complete|].
      apply SlotA_root; [exact Hb|discriminate|exact Hc|exact Hd|]. apply RepA_single. split.
      - rewrite ap_single_same. eexists. eexists. repeat split. (* by computation: b is a shortcut leaf in the empty batch *)
      - intros c q Hq. rewrite (ap_single_under _ _ _ _ c q Hq). exact (He c q Hq).
    Qed.

    Lemma via_child h' pre' Lb ct M' :
      node_spec h' -> h' mod 4 = 0 -> Lb <> [] ->
      h' + length pre' = nbits -> h' <= limit -> complete (lv h') ct -> SlotA sA0 h' pre' ct M' ->
      keys_ok pre' Lb -> NoDup (map fst Lb) -> keys_ok pre' M' -> NoDup (map fst M') ->
      childA_post h' pre' (mrg M' Lb) (via st (nodeW h') false h' pre' Lb ct).
    Proof.
      intros Hnode Hb HLne Hlen Hlim Hc Hs HkL HnL HkM HnM. unfold via. rewrite (load_store pre' h' Hlim).
      destruct (Hnode pre' Lb (sA0 (pre', h')) true M' Hlen Hlim (fun _ => Hb) ltac:(discriminate)
                  (store_wf _) (SlotA_loaded _ _ _ _ _ Hb Hs) HLne HkL HnL HkM HnM) as (d & t' & w & Erun & Ehash & _ & Ewr & Erep & Etab).
      rewrite Erun. exists d, (set_root ct (Some (SHash _ _ d))), w. split; [reflexivity|]. split; [exact Ehash|].
      split; [apply complete_set_root; exact Hc|]. split; [exact Ewr|].
      apply SlotA_root; try assumption; [exact (mrg_ne M' Lb HLne)|]. rewrite (Etab eq_refl). exact Erep.
    Qed.

    Lemma child_of_node h' : (0 < h' -> node_spec h') -> child_spec h'.
    Proof.
      (* otherwise lia puts them into this helper's statement *)
      clear limit4 nbits4.
      intros Hnode pre' Lb ct M' Hlen Hlim Hc Hs HkL HnL HkM HnM.
      destruct Lb as [|[k0 v0] rest].
      { (* no leaves: the hash is read off the slot, nothing is written *)
        rewrite childf_nil, (reads_hash _ _ _ _ (SlotA_reads _ h' pre' ct M' Hlim Hs)). cbn [option_map].
        exists (sh h' pre' M'), ct, []. rewrite mrg_nil_r. repeat split; try assumption; constructor. }
      destruct (Nat.eq_dec (h' mod 4) 0) as [Hb|Hb].
      - destruct h' as [|h''].
        + (* the bottom of the tree: the prefix is the key *)
          pose proof (keys_full_le1 pre' _ Hlen HkL HnL) as H1. destruct rest as [|y rest]; [|cbn in H1; lia].
          rewrite childf_bottom, (mrg_full pre' M' k0 v0 Hlen HkM HnM HkL).
          exact (fresh_child 0 pre' ct k0 v0 M' Hb Hlim Hc Hs (keys_full_le1 pre' _ Hlen HkM HnM)).
        + specialize (Hnode (Nat.lt_0_succ h'')). rewrite childf_root_store by exact Hb.
          destruct rest as [|y rest].
          * destruct (rslot ct) eqn:Hsl.
            -- (* the slot holds something: on into the batch found there *)
               apply via_child; try assumption. discriminate.
            -- (* one leaf into an empty slot: nothing is below it *)
               assert (M' = []) as ->.
               { destruct M' as [|x M'']; [reflexivity|]. destruct (reads_some _ _ _ _ (SlotA_reads _ _ _ _ _ Hlim Hs) ltac:(discriminate) Hsl). }
               exact (fresh_child (S h'') pre' ct k0 v0 [] Hb Hlim Hc Hs (Nat.le_0_l 1)).
          * (* several leaves: always into the batch found there *)
            apply via_child; try assumption. discriminate.
      - (* inside a batch *)
        rewrite childf_inner by (assumption || discriminate).
        assert (Hpos : 0 < h') by (destruct h'; [destruct (Hb eq_refl)|apply Nat.lt_0_succ]).
        specialize (Hnode Hpos). apply SlotA_inner in Hs; [|exact Hb].
        destruct (Hnode pre' ((k0, v0) :: rest) ct false M' Hlen Hlim ltac:(discriminate) (fun _ => Hb) Hc Hs ltac:(discriminate) HkL HnL HkM HnM)
          as (d & t' & w & Erun & Ehash & Ecomp & Ewr & Erep & _).
        exists d, t', w. repeat split; try assumption. apply SlotA_inner; assumption.
    Qed.

    (* the step at an inner node below the cache; two or more entries afterwards, so no shortcut leaf *)
    Lemma inner_ok h' pre isroot lvs l0 r0 Mx :
      child_spec h' ->
      S h' + length pre = nbits -> S h' <= limit ->
      (isroot = true -> S h' mod 4 = 0) -> (isroot = false -> S h' mod 4 <> 0) ->
      complete (lv h') l0 -> complete (lv h') r0 ->
      SlotA sA0 h' (pre ++ [false]) l0 (M0 pre Mx) -> SlotA sA0 h' (pre ++ [true]) r0 (M1 pre Mx) ->
      keys_ok pre lvs -> NoDup (map fst lvs) -> keys_ok pre Mx -> NoDup (map fst Mx) ->
      2 <= length (mrg Mx lvs) ->
      nodeA_post (S h') pre isroot (mrg Mx lvs) (innerW (nodeW h') false h' pre isroot lvs l0 r0).
    Proof.
      clear limit4 nbits4.
      intros Hch Hlen Hlim Hr1 Hr2 Hcl Hcr Hsl Hsr HkL HnL HkM HnM H2.
      assert (Hpl : length pre < nbits) by lia.
      destruct (Hch (pre ++ [false]) (M0 pre lvs) l0 (M0 pre Mx) (length_child h' pre false Hlen) ltac:(lia) Hcl Hsl
                  (keys_ok_M0 pre lvs Hpl HkL) (nodup_filter_fst lvs _ HnL) (keys_ok_M0 pre Mx Hpl HkM) (nodup_filter_fst Mx _ HnM))
        as (dl & l1 & w1 & Erunl & Ehashl & Ecompl & Ewrl & Eslotl).
      destruct (Hch (pre ++ [true]) (M1 pre lvs) r0 (M1 pre Mx) (length_child h' pre true Hlen) ltac:(lia) Hcr Hsr
                  (keys_ok_M1 pre lvs Hpl HkL) (nodup_filter_fst lvs _ HnL) (keys_ok_M1 pre Mx Hpl HkM) (nodup_filter_fst Mx _ HnM))
        as (dr & r1 & w2 & Erunr & Ehashr & Ecompr & Ewrr & Eslotr).
      rewrite <- M0_mrg in Ehashl, Eslotl. rewrite <- M1_mrg in Ehashr, Eslotr. subst dl dr.
      unfold innerf. rewrite split_eq, Erunl, Erunr. rewrite <- sh_node by (apply branches_many; exact H2).
      set (t3 := BNode D V _ l1 r1).
      assert (Hct : complete (if isroot then 5 else lv (S h')) t3) by (rewrite lv_S by assumption; split; assumption).
      exists (sh (S h') pre (mrg Mx lvs)), t3, (w2 ++ w1 ++ if isroot then [WStore D V (pre, S h') t3] else []).
      split; [reflexivity|]. split; [reflexivity|]. split; [exact Hct|]. split; [|split].
      - apply Forall_node; [exact (wr_ok_weaken pre false w1 Ewrl)|exact (wr_ok_weaken pre true w2 Ewrr)|].
        destruct isroot; [apply wr_ok_single; exact Hct|constructor].
      - apply RepA_assemble; try assumption; [apply wr_ok_okC; exact Ewrl|apply wr_ok_okC; exact Ewrr|].
        destruct isroot; repeat constructor.
      - intros ->. rewrite app_assoc. exact (apg_last _ _ ap1_eq (w2 ++ w1) (WStore D V (pre, S h') t3) [] sA0 eq_refl (Forall_nil _)).
    Qed.

    (* the walk at a node below the cache, after the push-down of a stored shortcut leaf: x = the leaves to insert,
       the slot and the two subtrees as `sel` leaves them *)
    Definition cont (h' : nat) (pre : list bool) (isroot : bool) (x : list (key * V) * option slot * bt * bt)
      : option (res D V) :=
      let '(lv0, s0, l0, r0) := x in
      match lv0, s0 with
      | [(k, v)], None =>
          let d := H (YLeaf v (pre, S h')) in
          let t1 := shortcut_at D V (BNode D V s0 l0 r0) d k v in
          Some (d, t1, if Nat.eqb (S h' mod 4) 0 then [WStore D V (pre, S h') t1] else [])
      | _, _ => innerW (nodeW h') false h' pre isroot lv0 l0 r0
      end.

    Definition sel (L : list (key * V)) (s : option slot) (l r : bt) : list (key * V) * option slot * bt * bt :=
      match s, rslot l, rslot r with
      | Some (SLeaf _ _ _), Some (SKey _ _ k), Some (SVal _ _ v) =>
          (merge_stored V L k v, None, set_root l None, set_root r None)
      | _, _, _ => (L, s, l, r)
      end.

    Lemma node_S h' pre L s l r isroot :
      nodeW (S h') false pre L (BNode D V s l r) isroot = cont h' pre isroot (sel L s l r).
    Proof. reflexivity. Qed.

    Lemma nodeC_S h' pre L s l r isroot :
      nodeW (S h') true pre L (BNode D V s l r) isroot = innerW (nodeW h') true h' pre isroot L l r.
    Proof. reflexivity. Qed.

    Lemma cont_some h' pre isroot L x l r :
      cont h' pre isroot (L, Some x, l, r) = innerW (nodeW h') false h' pre isroot L l r.
    Proof. destruct L as [|[k v] [|z L']]; reflexivity. Qed.

    Lemma sel_leaf L d l r k v : rslot l = Some (SKey D V k) -> rslot r = Some (SVal D V v) ->
      sel L (Some (SLeaf D V d)) l r = (merge_stored V L k v, None, set_root l None, set_root r None).
    Proof. intros Hl Hr. unfold sel. rewrite Hl, Hr. reflexivity. Qed.

    Lemma from_empty h' pre isroot lvs l0 r0 :
      child_spec h' ->
      S h' + length pre = nbits -> S h' <= limit ->
      (isroot = true -> S h' mod 4 = 0) -> (isroot = false -> S h' mod 4 <> 0) ->
      complete (lv h') l0 -> complete (lv h') r0 -> all_none l0 -> all_none r0 ->
      (forall b q, under (pre ++ [b]) q -> all_none (sA0 q)) ->
      lvs <> [] -> keys_ok pre lvs -> NoDup (map fst lvs) ->
      nodeA_post (S h') pre isroot lvs (cont h' pre isroot (lvs, None, l0, r0)).
    Proof.
      clear limit4 nbits4.
      intros Hch Hlen Hlim Hr1 Hr2 Hcl Hcr Hnl Hnr He Hne HkL HnL.
      destruct lvs as [|[k v] [|y rest]]; [contradiction| |].
      - (* one leaf into an empty subtree: a shortcut leaf in this slot, written out when the slot is a batch root *)
        assert (Hir : Nat.eqb (S h' mod 4) 0 = isroot)
          by (destruct isroot; [apply Nat.eqb_eq, Hr1|apply Nat.eqb_neq, Hr2]; reflexivity).
        unfold cont. rewrite Hir.
        set (d := H (YLeaf v (pre, S h'))).
        set (t1 := shortcut_at D V (BNode D V None l0 r0) d k v).
        assert (Hc1 : complete (if isroot then 5 else lv (S h')) t1).
        { rewrite lv_S by assumption. split; apply complete_set_root; assumption. }
        exists d, t1, (if isroot then [WStore D V (pre, S h') t1] else []).
        split; [reflexivity|]. split; [symmetry; apply sh_single; exact Hlim|]. split; [exact Hc1|].
        split; [|split].
        + destruct isroot; [apply wr_ok_single; exact Hc1|constructor].
        + apply RepA_single. split.
          * eexists. eexists. split; [reflexivity|]. rewrite !(rslot_set_root_lv h') by assumption.
            repeat split; apply below_none_set_root, all_none_below; assumption.
          * intros b q Hq. destruct isroot; [rewrite (ap_single_under _ _ _ _ b q Hq)|]; exact (He b q Hq).
        + intros ->. apply ap_single_same.
      - (* two or more leaves: an inner node over two empty children *)
        set (lvs := (k, v) :: y :: rest) in *.
        pose proof (proj2 (SlotA_nil sA0 h' (pre ++ [false]) l0) (conj Hnl (He false))) as Hsl.
        pose proof (proj2 (SlotA_nil sA0 h' (pre ++ [true]) r0) (conj Hnr (He true))) as Hsr.
        (* by computation: cont on two or more leaves and no slot is innerW, mrg [] lvs is lvs (and M0 pre [], M1 pre [] are []) *)
        change (nodeA_post (S h') pre isroot (mrg [] lvs) (innerW (nodeW h') false h' pre isroot lvs l0 r0)).
        apply (inner_ok h' pre isroot lvs l0 r0 [] Hch Hlen Hlim Hr1 Hr2 Hcl Hcr Hsl Hsr HkL HnL); [constructor|constructor|cbn; lia].
    Qed.

    Lemma node_of_child h' : child_spec h' -> node_spec (S h').
    Proof.
      clear limit4 nbits4.
      intros Hch pre L t isroot M Hlen Hlim Hr1 Hr2 Hc HR Hne HkL HnL HkM HnM.
      rewrite lv_S in Hc by assumption. apply complete_S in Hc. destruct Hc as (s & l & r & -> & Hcl & Hcr).
      destruct M as [|[k0 v0] [|y M2]].
      - (* an empty subtree here *)
        apply RepA_nil in HR. destruct HR as [(-> & Hnl & Hnr) He].
        rewrite node_S, mrg_nil_l. cbn [sel].
        exact (from_empty h' pre isroot L l r Hch Hlen Hlim Hr1 Hr2 Hcl Hcr Hnl Hnr (fun b q Hq => He q (under_app _ _ _ Hq)) Hne HkL HnL).
      - (* a shortcut leaf is stored here: it is pushed down together with the new leaves *)
        apply -> RepA_single in HR. destruct HR as [(l' & r' & Heq & Hrl & Hrr & Hbl & Hbr) He].
        injection Heq as -> -> ->. rewrite node_S, (sel_leaf L _ l' r' k0 v0 Hrl Hrr), merge_stored_mrg.
        exact (from_empty h' pre isroot (mrg [(k0, v0)] L) (set_root l' None) (set_root r' None) Hch Hlen Hlim Hr1 Hr2
                 (complete_set_root _ l' None Hcl) (complete_set_root _ r' None Hcr)
                 (below_none_reset l' Hbl) (below_none_reset r' Hbr) He (mrg_ne _ L Hne)
                 (keys_ok_mrg pre _ L HkM HkL) (nodup_mrg _ L HnM HnL)).
      - (* an inner node here *)
        set (M := (k0, v0) :: y :: M2) in *. assert (H2 : 2 <= length M) by (cbn; lia).
        apply -> RepA_node in HR; [|exact H2]. destruct HR as (l' & r' & Heq & Hsl & Hsr). injection Heq as -> -> ->.
        rewrite node_S. cbn [sel]. rewrite cont_some.
        apply (inner_ok h' pre isroot L l' r' M Hch Hlen Hlim Hr1 Hr2 Hcl Hcr Hsl Hsr HkL HnL HkM HnM).
        pose proof (length_mrg_ge M L HnM). lia.
    Qed.

    Theorem walk_below_cache : forall h, 0 < h -> node_spec h.
    Proof using limit4 nbits4 store_wf.
      (* limit4, nbits4: premises of the statement that no step uses; DESIGN 3.4 *)
      induction h as [|h IH]; intros Hh; [lia|]. apply node_of_child. apply child_of_node. exact IH.
    Qed.

    Theorem child_below_cache : forall h', child_spec h'.
    Proof. intros h'. apply child_of_node. apply walk_below_cache. Qed.
  End WalkA.

  Section WalkC.
    Variable st : hstate D V.
    Hypothesis lim_pos : 0 < limit.
    Notation nodeW := (node D E V H limit nbits ds st).
    Notation childW := (childf D E V H limit nbits ds st).
    Notation innerW := (innerf D E V H limit nbits ds st).
    Notation sA0 := (sA0 st).

    Definition sC0 : hpos -> bt := fun q => tget D V (hs_cache D V st) q.
    Hypothesis store_wf : forall q, complete 5 (sA0 q).
    Hypothesis cache_wf : forall q, complete 5 (sC0 q).

    Lemma wr_ok_no_cache pre w s : wr_ok pre w -> apC s w = s.
    Proof.
      unfold apC. intros Hw. revert s. induction Hw as [|x w Hx _ IH]; intros s; [reflexivity|].
      cbn [fold_left]. rewrite IH. destruct x; try contradiction. reflexivity.
    Qed.

    Lemma load_cache pre' h' : limit < h' -> load D V limit st (pre', h') = sC0 (pre', h').
    Proof. intros Hl. unfold load, sC0. cbn [snd]. rewrite (proj2 (Nat.ltb_lt _ _) Hl). reflexivity. Qed.

    Definition nodeC_spec (h : nat) : Prop :=
      forall pre L t isroot M,
        h + length pre = nbits -> limit < h ->
        (isroot = true -> h mod 4 = 0) -> (isroot = false -> h mod 4 <> 0) ->
        complete (if isroot then 5 else lv h) t ->
        RepC sC0 sA0 h pre t M ->
        L <> [] -> keys_ok pre L -> NoDup (map fst L) -> keys_ok pre M -> NoDup (map fst M) ->
        exists d t' w, nodeW h true pre L t isroot = Some (d, t', w) /\
          d = sh h pre (mrg M L) /\
          complete (if isroot then 5 else lv h) t' /\
          wr_okC pre w /\
          RepC (apC sC0 w) (ap sA0 w) h pre t' (mrg M L) /\
          (isroot = true -> apC sC0 w (pre, h) = t').

    Definition childC_spec (h' : nat) : Prop :=
      forall pre' Lb ct M',
        h' + length pre' = nbits -> limit <= h' ->
        complete (lv h') ct ->
        SlotC sC0 sA0 h' pre' ct M' ->
        keys_ok pre' Lb -> NoDup (map fst Lb) -> keys_ok pre' M' -> NoDup (map fst M') ->
        exists d ct' w, childW (nodeW h') true h' pre' Lb ct = Some (d, ct', w) /\
          d = sh h' pre' (mrg M' Lb) /\
          complete (lv h') ct' /\
          wr_okC pre' w /\
          SlotC (apC sC0 w) (ap sA0 w) h' pre' ct' (mrg M' Lb).

    Lemma childC_of_node h' : (limit < h' -> nodeC_spec h') -> childC_spec h'.
    Proof.
      intros Hnode pre' Lb ct M' Hlen Hlim Hc Hs HkL HnL HkM HnM.
      destruct Lb as [|x rest].
      { rewrite childf_nil, (reads_hash _ _ _ _ (SlotC_reads _ _ h' pre' ct M' Hs)). cbn [option_map].
        exists (sh h' pre' M'), ct, []. rewrite mrg_nil_r. repeat split; try assumption; constructor. }
      set (Lb := x :: rest) in *. assert (HLne : Lb <> []) by discriminate.
      pose proof (mrg_ne M' Lb HLne) as Hmne.
      destruct (Nat.eq_dec (h' mod 4) 0) as [Hb|Hb].
      - (* the root of the next batch: both cases rewrite with childf_root_cached and end with SlotC_root; only the walk
           applied to the loaded batch differs (nodeC_spec for a cached batch, walk_below_cache for a stored one at the limit) *)
        rewrite childf_root_cached by assumption. unfold via.
        pose proof (SlotC_loaded _ _ _ _ _ _ Hb Hs) as HR.
        assert (Hrec : exists d t' w, nodeW h' (Nat.ltb limit h') pre' Lb (load D V limit st (pre', h')) true = Some (d, t', w) /\
                  d = sh h' pre' (mrg M' Lb) /\ wr_okC pre' w /\
                  (if Nat.ltb limit h' then RepC (apC sC0 w) (ap sA0 w) h' pre' (apC sC0 w (pre', h')) (mrg M' Lb)
                   else RepA (ap sA0 w) h' pre' (ap sA0 w (pre', h')) (mrg M' Lb))).
        { (* also decides the if in HR *)
          destruct (Nat.ltb limit h') eqn:Hlt; [apply Nat.ltb_lt in Hlt|apply Nat.ltb_ge in Hlt].
          - rewrite (load_cache pre' h' Hlt).
            (* Hlt twice: Hnode's guard, then the spec's own premise *)
            destruct (Hnode Hlt pre' Lb (sC0 (pre', h')) true M' Hlen Hlt (fun _ => Hb) ltac:(discriminate)
                        (cache_wf _) HR HLne HkL HnL HkM HnM) as (d & t' & w & Erun & Ehash & _ & Ewr & Erep & Etab).
            exists d, t', w. rewrite (Etab eq_refl). repeat split; assumption.
          - assert (h' = limit) as -> by lia. rewrite (load_store st pre' limit (le_n _)).
            pose proof (walk_below_cache st store_wf limit lim_pos) as HnodeA. (* node_spec at the limit *)
            destruct (HnodeA pre' Lb (sA0 (pre', limit)) true M' Hlen (le_n _) (fun _ => Hb) ltac:(discriminate)
                        (store_wf _) HR HLne HkL HnL HkM HnM) as (d & t' & w & Erun & Ehash & _ & Ewr & Erep & Etab).
            exists d, t', w. rewrite (Etab eq_refl). repeat split; try assumption. apply wr_ok_okC; exact Ewr. }
        destruct Hrec as (d & t' & w & Erun & Ehash & Ewr & Erep). rewrite Erun.
        exists d, (set_root ct (Some (SHash _ _ d))), w.
        split; [reflexivity|]. split; [exact Ehash|]. split; [apply complete_set_root; exact Hc|]. split; [exact Ewr|].
        apply SlotC_root; assumption.
      - (* inside a batch *)
        rewrite childf_inner by assumption.
        pose proof (above_limit h' Hlim Hb) as Hlt.
        apply SlotC_inner in Hs; [|exact Hb].
        destruct (Hnode Hlt pre' Lb ct false M' Hlen Hlt ltac:(discriminate) (fun _ => Hb) Hc Hs HLne HkL HnL HkM HnM)
          as (d & t' & w & Erun & Ehash & Ecomp & Ewr & Erep & _).
        exists d, t', w. repeat split; try assumption. apply SlotC_inner; assumption.
    Qed.

    Lemma nodeC_of_child h' : childC_spec h' -> nodeC_spec (S h').
    Proof.
      clear limit4 nbits4 lim_pos.
      intros Hch pre L t isroot M Hlen Hlim Hr1 Hr2 Hc HR Hne HkL HnL HkM HnM.
      rewrite lv_S in Hc by assumption. apply complete_S in Hc. destruct Hc as (s & l & r & -> & Hcl & Hcr).
      destruct (RepC_slots _ _ _ _ _ _ _ _ HR) as [Hsl Hsr].
      assert (Hpl : length pre < nbits) by lia.
      destruct (Hch (pre ++ [false]) (M0 pre L) l (M0 pre M) (length_child h' pre false Hlen) ltac:(lia) Hcl Hsl
                  (keys_ok_M0 pre L Hpl HkL) (nodup_filter_fst L _ HnL) (keys_ok_M0 pre M Hpl HkM) (nodup_filter_fst M _ HnM))
        as (dl & l1 & w1 & Erunl & Ehashl & Ecompl & Ewrl & Eslotl).
      destruct (Hch (pre ++ [true]) (M1 pre L) r (M1 pre M) (length_child h' pre true Hlen) ltac:(lia) Hcr Hsr
                  (keys_ok_M1 pre L Hpl HkL) (nodup_filter_fst L _ HnL) (keys_ok_M1 pre M Hpl HkM) (nodup_filter_fst M _ HnM))
        as (dr & r1 & w2 & Erunr & Ehashr & Ecompr & Ewrr & Eslotr).
      rewrite <- M0_mrg in Ehashl, Eslotl. rewrite <- M1_mrg in Ehashr, Eslotr. subst dl dr.
      pose proof (mrg_ne M L Hne) as Hmne.
      rewrite nodeC_S. unfold innerf. rewrite split_eq, Erunl, Erunr. rewrite <- sh_node by (apply branches_above; [exact Hmne|exact Hlim]).
      set (t3 := BNode D V _ l1 r1).
      assert (Hct : complete (if isroot then 5 else lv (S h')) t3) by (rewrite lv_S by assumption; split; assumption).
      set (tile := if Nat.eqb (S h') (limit + 4) then [WTile D V (pre, S h') t3] else []).
      (* tile is [] or [WTile ..] *)
      assert (Htile : forall P : wr -> Prop, P (WTile D V (pre, S h') t3) -> Forall P tile)
        by (intros P HP; unfold tile; destruct (Nat.eqb (S h') (limit + 4)); constructor; [exact HP|constructor]).
      exists (sh (S h') pre (mrg M L)), t3, (w2 ++ w1 ++ if isroot then WCache D V (pre, S h') t3 :: tile else []).
      split; [reflexivity|]. split; [reflexivity|]. split; [exact Hct|]. split; [|split].
      - apply Forall_node; [exact (wr_okC_weaken pre false w1 Ewrl)|exact (wr_okC_weaken pre true w2 Ewrr)|].
        destruct isroot; [|constructor]. assert (Hx : under pre (pre, S h') /\ complete 5 t3) by (split; [apply under_self|exact Hct]).
        constructor; [exact Hx|exact (Htile _ Hx)].
      - apply RepC_assemble; try assumption.
        destruct isroot; [|constructor]. constructor; [reflexivity|exact (Htile _ eq_refl)].
      - intros ->. rewrite app_assoc. exact (apg_last _ _ apC1_eq (w2 ++ w1) (WCache D V (pre, S h') t3) tile sC0 eq_refl (Htile _ eq_refl)).
    Qed.

    Theorem walk_through_cache : forall h, limit < h -> nodeC_spec h.
    Proof using limit4 nbits4 lim_pos store_wf cache_wf.
      (* nbits4 comes with walk_below_cache, limit4 is used (above_limit) *)
      induction h as [|h IH]; intros Hl; [lia|]. apply nodeC_of_child. apply childC_of_node. exact IH.
    Qed.
  End WalkC.

  Definition RepState (st : hstate D V) (M : list (key * V)) : Prop :=
    RepC (sC0 st) (sA0 st) nbits [] (sC0 st ([], nbits)) M /\
    (forall q, complete 5 (sA0 st q)) /\ (forall q, complete 5 (sC0 st q)).

  Lemma store_after w st q : sA0 (fold_left (apply_wr D V) w st) q = ap (sA0 st) w q.
  Proof. apply (apg_after _ _ ap1_eq (hs_store D V)). intros s [p b|p b|p b]; reflexivity. Qed.

  Lemma cache_after w st q : sC0 (fold_left (apply_wr D V) w st) q = apC (sC0 st) w q.
  Proof. apply (apg_after _ _ apC1_eq (hs_cache D V)). intros s [p b|p b|p b]; reflexivity. Qed.

  Lemma RepState_after st w t' M :
    wr_okC [] w -> (forall q, complete 5 (sA0 st q)) -> (forall q, complete 5 (sC0 st q)) ->
    RepC (apC (sC0 st) w) (ap (sA0 st) w) nbits [] t' M -> apC (sC0 st) w ([], nbits) = t' ->
    RepState (fold_left (apply_wr D V) w st) M.
  Proof.
    intros Hw Hwa Hwc HR <-. split; [|split].
    - rewrite cache_after. revert HR. apply RepC_ext; intros q _; symmetry; [apply cache_after|apply store_after].
    - intros q. rewrite store_after. exact (apg_complete _ _ ap1_eq w (wr_okC_complete [] w Hw) _ Hwa q).
    - intros q. rewrite cache_after. exact (apg_complete _ _ apC1_eq w (wr_okC_complete [] w Hw) _ Hwc q).
  Qed.

  Hypothesis limit_pos : 0 < limit.
  Hypothesis limit_lt : limit < nbits.

  (* HyperTree.Add / AddBulk on tables that represent the sparse tree of the map M: the root of the tree of the
     updated map is returned, and the tables represent that tree afterwards *)
  Theorem insert_refines st M L :
    RepState st M ->
    L <> [] -> keys_ok [] L -> NoDup (map fst L) -> keys_ok [] M -> NoDup (map fst M) ->
    exists d w, walk_insert D E V H limit nbits ds st L = Some (d, w) /\
      d = sh nbits [] (mrg M L) /\
      RepState (fold_left (apply_wr D V) w st) (mrg M L).
  Proof.
    intros (HR & Hwa & Hwc) Hne HkL HnL HkM HnM.
    unfold walk_insert. destruct L as [|x L']; [contradiction|].
    rewrite (proj2 (Nat.ltb_lt _ _) limit_lt).
    rewrite (load_cache st [] nbits limit_lt).
    pose proof (walk_through_cache st limit_pos Hwa Hwc nbits limit_lt) as Hroot. (* nodeC_spec at the root of the tree *)
    destruct (Hroot [] (x :: L') (sC0 st ([], nbits)) true M
                (Nat.add_0_r nbits) limit_lt (fun _ => nbits4) ltac:(discriminate) (Hwc _) HR Hne HkL HnL HkM HnM)
      as (d & t' & w & Erun & Ehash & _ & Ewr & Erep & Etab).
    rewrite Erun. exists d, w. split; [reflexivity|]. split; [exact Ehash|].
    exact (RepState_after st w t' _ Ewr Hwa Hwc Erep (Etab eq_refl)).
  Qed.

  Lemma all_none_complete_empty : all_none (empty_batch D V).
  Proof. apply all_none_bempty. Qed.

  Theorem hinit_RepState : RepState (hinit D V) [].
  Proof.
    unfold RepState, sC0, sA0, tget. cbn [hinit hs_cache hs_store assoc]. split; [|split].
    - apply RepC_nil. split; [apply all_none_bempty|]. intros q _. split; apply all_none_bempty.
    - intros q. apply complete_bempty.
    - intros q. apply complete_bempty.
  Qed.
End HyperRefine.

