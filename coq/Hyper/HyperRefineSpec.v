(* `sh`, the specification on full keys that Hyper/HyperRefine.v refines the batches to, is the root hash of the
   published construction (HyperModel.ytree_of: `sh_spec`, `sh_root`), whatever the order in which the map is listed
   (`sh_perm`), and `mrg` is HyperModel.map_add_bulk up to that order (`mrg_perm_set_all`).  `Represents` lets the tables
   store any listing of the map, which makes insert_refines a statement about the published root: `hb_insert_spec`,
   and `hb_run_spec` for a sequence of calls. *)
From QV Require Import Base.Util Base.Facts Base.HashSig Hyper.HyperModel Hyper.HyperProofs Hyper.HyperMap Hyper.HyperBatch Hyper.HyperRefine.
From Coq Require Import Permutation.

Local Open Scope nat_scope.

(* two facts about lists, kept out of Base/Facts.v because that file, which most others load, does not load Permutation *)
Lemma perm_filter {A} (f : A -> bool) (l l' : list A) : Permutation l l' -> Permutation (filter f l) (filter f l').
Proof.
  induction 1 as [|x l l' _ IH|x y l|l l' l'' _ IH1 _ IH2]; cbn.
  - constructor.
  - destruct (f x); [constructor|]; exact IH.
  - destruct (f x), (f y); try apply Permutation_refl. apply perm_swap.
  - exact (Permutation_trans IH1 IH2).
Qed.

Lemma perm_le1 {A} (l l' : list A) : length l <= 1 -> Permutation l l' -> l' = l.
Proof.
  destruct l as [|x [|y l2]]; cbn; intros Hl Hp; [apply Permutation_nil; exact Hp|apply Permutation_length_1_inv; exact Hp|lia].
Qed.

Section HyperRefineSpec.
  Variables D E V : Type.
  Variable H : hin D E V -> D.
  Variable limit nbits : nat.
  Notation ds := (dlist D E V H nbits).
  Notation sh := (sh D E V H limit nbits).
  Notation keys_ok := (keys_ok V nbits).
  Notation mrg := (mrg V).

  Lemma keys_ok_perm pre (M M' : list (key * V)) : Permutation M M' -> keys_ok pre M -> keys_ok pre M'.
  Proof. intros Hp Hk. exact (Permutation_Forall Hp Hk). Qed.

  Lemma nodup_perm (M M' : list (key * V)) : Permutation M M' -> NoDup (map fst M) -> NoDup (map fst M').
  Proof. intros Hp. apply Permutation_NoDup. apply Permutation_map. exact Hp. Qed.

  (* whatever is computed, at a node with two or more entries, from the two halves of the map does not depend on the order
     in which the map is listed: with at most one entry the two listings are the same *)
  Lemma perm_halves {A} (f : nat -> list bool -> list (key * V) -> A) :
    (forall h' pre M M', 2 <= length M -> 2 <= length M' ->
       f h' (pre ++ [false]) (M0 V pre M) = f h' (pre ++ [false]) (M0 V pre M') ->
       f h' (pre ++ [true]) (M1 V pre M) = f h' (pre ++ [true]) (M1 V pre M') -> f (S h') pre M = f (S h') pre M') ->
    forall h pre M M', Permutation M M' -> NoDup (map fst M) -> keys_ok pre M -> h + length pre = nbits -> f h pre M = f h pre M'.
  Proof.
    intros Hstep. induction h as [|h' IH]; intros pre M M' Hp Hn Hk Hlen.
    - rewrite (perm_le1 M M' (keys_full_le1 V nbits pre M Hlen Hk Hn) Hp). reflexivity.
    - destruct (Nat.le_gt_cases (length M) 1) as [H1|H2]; [rewrite (perm_le1 M M' H1 Hp); reflexivity|].
      assert (Hpl : length pre < nbits) by lia.
      apply Hstep; [exact H2|rewrite <- (Permutation_length Hp); exact H2| |].
      + apply IH; [apply perm_filter; exact Hp|apply nodup_filter_fst; exact Hn|apply keys_ok_M0; assumption|apply length_child; exact Hlen].
      + apply IH; [apply perm_filter; exact Hp|apply nodup_filter_fst; exact Hn|apply keys_ok_M1; assumption|apply length_child; exact Hlen].
  Qed.

  Lemma sh_perm h : forall pre M M', Permutation M M' -> NoDup (map fst M) -> keys_ok pre M -> h + length pre = nbits ->
    sh h pre M = sh h pre M'.
  Proof.
    apply (perm_halves sh). intros h' pre M M' H2 H2' I0 I1.
    rewrite (sh_node D E V H limit nbits h' pre M (branches_many V limit _ M H2)),
      (sh_node D E V H limit nbits h' pre M' (branches_many V limit _ M' H2')), I0, I1. reflexivity.
  Qed.

  Definition ents (pre : list bool) (M : list (key * V)) : list (entry V) :=
    map (fun kv => (skipn (length pre) (fst kv), kv)) M.

  Lemma child_ents pre (M : list (key * V)) b :
    Forall (fun kv => length pre < length (fst kv)) M ->
    child V b (ents pre M) = ents (pre ++ [b]) (filter (fun kv => Bool.eqb (bit_at pre (fst kv)) b) M).
  Proof.
    intros Hl. unfold child, ents. induction Hl as [|[k v] M Hk _ IH]; [reflexivity|]. cbn [map flat_map fst snd filter].
    rewrite (skipn_nth_cons false (length pre) k Hk). change (nth (length pre) k false) with (bit_at pre k).
    destruct (Bool.eqb (bit_at pre k) b); cbn [app map fst]; rewrite IH; [|reflexivity].
    rewrite last_length. reflexivity.
  Qed.

  Lemma filter_M0 pre (M : list (key * V)) : filter (fun kv => Bool.eqb (bit_at pre (fst kv)) false) M = M0 V pre M.
  Proof. unfold M0. apply filter_ext. intros kv. destruct (bit_at pre (fst kv)); reflexivity. Qed.
  Lemma filter_M1 pre (M : list (key * V)) : filter (fun kv => Bool.eqb (bit_at pre (fst kv)) true) M = M1 V pre M.
  Proof. unfold M1. apply filter_ext. intros kv. destruct (bit_at pre (fst kv)); reflexivity. Qed.

  (* the published tree of the part M at height h; ds lists the default hashes from height nbits downwards, so those for h start nbits - h further on *)
  Notation stree h pre M := (ybuild D E V H limit h (skipn (nbits - h) ds) pre (ents pre M)).

  Lemma stree_cases h pre M : keys_ok pre M -> h + length pre = nbits ->
    (M = [] /\ stree h pre M = TEmpty) \/
    (exists k v rest, M = (k, v) :: rest /\ (h = 0 \/ (rest = [] /\ h <= limit)) /\
       stree h pre M = TLeaf k v (H (YLeaf v (pre, h)))) \/
    (exists h', h = S h' /\ branches V limit h M /\
       (forall b, h' + length (pre ++ [b]) = nbits) /\ keys_ok (pre ++ [false]) (M0 V pre M) /\ keys_ok (pre ++ [true]) (M1 V pre M) /\
       stree h pre M =
         TNode (H (YNode (thash D V (dflt D E V H nbits ds h') (stree h' (pre ++ [true]) (M1 V pre M)))
                         (thash D V (dflt D E V H nbits ds h') (stree h' (pre ++ [false]) (M0 V pre M))) (pre, h)))
               (stree h' (pre ++ [false]) (M0 V pre M)) (stree h' (pre ++ [true]) (M1 V pre M))).
  Proof.
    intros Hk Hlen.
    destruct (ybuild_view D E V H limit h (skipn (nbits - h) ds) pre (ents pre M))
      as [[Hs Ey]|[(kb0 & k0 & v0 & rest & Hs & Hleaf & Ey)|(h' & -> & Hbr & Ey)]].
    - left. split; [exact (map_eq_nil _ _ Hs)|exact Ey].
    - right. left. destruct M as [|[k v] M']; [discriminate|]. injection Hs as _ <- <- <-. exists k, v, M'.
      split; [reflexivity|]. split; [|exact Ey].
      destruct Hleaf as [Hz|[Hr Hl]]; [left; exact Hz|right; split; [exact (map_eq_nil _ _ Hr)|exact Hl]].
    - right. right. exists h'. split; [reflexivity|].
      assert (Hpl : length pre < nbits) by lia.
      split.
      { unfold ents in Hbr. rewrite map_length in Hbr. destruct Hbr as [Hbr|[Hne Hbr]]; [apply branches_many; exact Hbr|].
        apply branches_above; [intros ->; apply Hne; reflexivity|exact Hbr]. }
      split; [intros b; apply length_child; exact Hlen|]. split; [apply keys_ok_M0; assumption|]. split; [apply keys_ok_M1; assumption|].
      assert (Hlong : Forall (fun kv : key * V => length pre < length (fst kv)) M).
      { revert Hk. apply Forall_impl. intros kv [A _].
        (* fst kv at type key and at list bool: two atoms for lia *)
        unfold key in *. lia. }
      rewrite !(child_ents pre _ _ Hlong), filter_M0, filter_M1, tl_skipn, hd_skipn in Ey.
      replace (S (nbits - S h')) with (nbits - h') in Ey by lia. exact Ey.
  Qed.

  Lemma sh_spec h : forall pre M, keys_ok pre M -> h + length pre = nbits ->
    sh h pre M = thash D V (dflt D E V H nbits ds h) (stree h pre M).
  Proof.
    induction h as [h IH] using lt_wf_ind. intros pre M Hk Hlen.
    destruct (stree_cases h pre M Hk Hlen) as [[-> ->]|[(k & v & rest & -> & Hleaf & ->)|(h' & -> & Hbr & Hl' & K0 & K1 & ->)]]; cbn [thash].
    - apply sh_nil.
    - destruct Hleaf as [->|[-> Hl]]; [reflexivity|apply sh_single; exact Hl].
    - rewrite (sh_node D E V H limit nbits h' pre M Hbr), (IH h' ltac:(lia) _ _ K1 (Hl' true)), (IH h' ltac:(lia) _ _ K0 (Hl' false)). reflexivity.
  Qed.

  Theorem sh_root (M : list (key * V)) : keys_ok [] M ->
    sh nbits [] M = yroot D E V H ds (ytree_of D E V H limit nbits ds M).
  Proof.
    intros Hk. rewrite (sh_spec nbits [] M Hk (Nat.add_0_r nbits)). unfold HyperBatch.dflt.
    rewrite <- hd_skipn, Nat.sub_diag. reflexivity.
  Qed.

  Lemma map_get_perm (M m : list (key * V)) k : Permutation M m -> NoDup (map fst M) -> map_get V M k = map_get V m k.
  Proof.
    intros Hp HM. pose proof (nodup_perm M m Hp HM) as Hm. destruct (map_get V M k) as [w|] eqn:Hg; symmetry.
    - apply (map_get_in V m k w Hm), (Permutation_in _ Hp), map_get_some_in, Hg.
    - apply map_get_none. rewrite <- (Permutation_map fst Hp). apply map_get_none, Hg.
  Qed.

  Lemma map_get_mrg M L k :
    map_get V (mrg M L) k = match map_get V L k with Some w => Some w | None => map_get V M k end.
  Proof.
    unfold HyperRefine.mrg. rewrite map_get_app, (map_get_assoc V (filter _ M)),
      (assoc_filter_key key_eqb key_eqb_eq (fun k' => negb (inb V k' L))), <- map_get_assoc.
    destruct (inb V k L) eqn:Hi; cbn [negb].
    - apply (inb_in V), (map_get_dom V) in Hi. destruct Hi as [w ->]. reflexivity.
    - assert (Hl : map_get V L k = None) by (apply map_get_none; intros Hc; apply (inb_in V) in Hc; congruence).
      rewrite Hl. destruct (map_get V M k); reflexivity.
  Qed.

  Lemma mrg_perm_set_all (M m L : list (key * V)) :
    Permutation M m -> NoDup (map fst M) -> NoDup (map fst L) -> Permutation (mrg M L) (set_all V m L).
  Proof.
    intros Hp HM HL. pose proof (nodup_perm M m Hp HM) as Hm.
    apply NoDup_Permutation.
    - apply (NoDup_map_inv fst). apply nodup_mrg; assumption.
    - apply (NoDup_map_inv fst). apply set_all_nodup. exact Hm.
    - (* two listings without repeated keys that look up alike *)
      intros [k w]. rewrite (map_get_in V _ k w (nodup_mrg V M L HM HL)), (map_get_in V _ k w (set_all_nodup V L m Hm)).
      rewrite map_get_mrg, (set_all_lookup V L m k HL), map_get_app, (map_get_perm M m k Hp HM). reflexivity.
  Qed.

  Lemma keys_ok_nil_len (M : list (key * V)) : keys_ok [] M <-> Forall (fun kv => length (fst kv) = nbits) M.
  Proof.
    unfold HyperRefine.keys_ok. split; apply Forall_impl; intros kv Hk; [exact (proj1 Hk)|split; [exact Hk|reflexivity]].
  Qed.

  Hypothesis limit4 : limit mod 4 = 0.
  Hypothesis nbits4 : nbits mod 4 = 0.
  Hypothesis limit_pos : 0 < limit.
  Hypothesis limit_lt : limit < nbits.

  (* the tables represent the sparse tree of the map m, listed in some order *)
  Definition Represents (st : hstate D V) (m : list (key * V)) : Prop :=
    exists M, Permutation M m /\ NoDup (map fst M) /\ keys_ok [] M /\ RepState D E V H limit nbits st M.

  (* C04.  One HyperTree.Add / AddBulk call with the key/value pairs kvs (any pairs of full-length keys, repetitions allowed:
     the first occurrence of a key in the call wins, as in the Go code): the call succeeds, returns the root of the
     published construction over map_add_bulk m kvs, and the tables represent that map afterwards. *)
  Theorem hb_insert_spec st m kvs :
    Represents st m -> kvs <> [] -> Forall (fun kv => length (fst kv) = nbits) kvs ->
    exists d st', hb_insert D E V H limit nbits ds st kvs = Some (d, st') /\
      d = yroot D E V H ds (ytree_of D E V H limit nbits ds (map_add_bulk V m kvs)) /\
      Represents st' (map_add_bulk V m kvs).
  Proof.
    intros (M & Hp & HnM & HkM & HR) Hne Hlen.
    set (L := bulk_dedup V [] kvs).
    assert (HnL : NoDup (map fst L)).
    { apply (dedup_nodup V kvs []). }
    assert (HkL : keys_ok [] L).
    { apply keys_ok_nil_len. exact (incl_Forall (dedup_sub V [] kvs) Hlen). }
    assert (HLne : L <> []).
    { unfold L. destruct kvs as [|[k v] r]; [contradiction|]. cbn. discriminate. }
    destruct (insert_refines D E V H limit nbits limit4 nbits4 limit_pos limit_lt st M L HR HLne HkL HnL HkM HnM) as (d & w & E1 & E2 & E3).
    unfold hb_insert. fold L. rewrite E1. exists d, (fold_left (apply_wr D V) w st). split; [reflexivity|].
    (* map_add_bulk V m kvs is set_all V m L by definition *)
    assert (Hperm : Permutation (mrg M L) (map_add_bulk V m kvs)) by (exact (mrg_perm_set_all M m L Hp HnM HnL)).
    pose proof (nodup_mrg V M L HnM HnL) as HnML. pose proof (keys_ok_mrg V nbits [] M L HkM HkL) as HkML.
    split.
    - rewrite E2, (sh_perm nbits [] (mrg M L) (map_add_bulk V m kvs) Hperm HnML HkML (Nat.add_0_r nbits)).
      apply sh_root. exact (keys_ok_perm [] _ _ Hperm HkML).
    - exists (mrg M L). split; [exact Hperm|]. split; [exact HnML|]. split; [exact HkML|exact E3].
  Qed.

  Theorem hinit_Represents : Represents (hinit D V) [].
  Proof. exists []. do 3 (split; [constructor|]). apply hinit_RepState. Qed.

  Fixpoint hb_run (st : hstate D V) (calls : list (list (key * V))) : option (list D * hstate D V) :=
    match calls with
    | [] => Some ([], st)
    | kvs :: r =>
        match hb_insert D E V H limit nbits ds st kvs with
        | None => None
        | Some (d, st') => match hb_run st' r with Some (dsr, st'') => Some (d :: dsr, st'') | None => None end
        end
    end.

  Fixpoint spec_run (m : list (key * V)) (calls : list (list (key * V))) : list D * list (key * V) :=
    match calls with
    | [] => ([], m)
    | kvs :: r =>
        let m' := map_add_bulk V m kvs in
        let '(dsr, m'') := spec_run m' r in
        (yroot D E V H ds (ytree_of D E V H limit nbits ds m') :: dsr, m'')
    end.

  (* C04.  From any represented state: the digest each call returns is the root of the published construction over the
     map built so far *)
  Theorem hb_run_spec calls : forall st m,
    Represents st m ->
    Forall (fun kvs => kvs <> [] /\ Forall (fun kv => length (fst kv) = nbits) kvs) calls ->
    exists st', hb_run st calls = Some (fst (spec_run m calls), st') /\ Represents st' (snd (spec_run m calls)).
  Proof.
    induction calls as [|kvs r IH]; intros st m HR Hc.
    - exists st. split; [reflexivity|exact HR].
    - inversion Hc as [|? ? [Hne Hl] Hc']; subst.
      destruct (hb_insert_spec st m kvs HR Hne Hl) as (d & st' & E1 & E2 & E3).
      destruct (IH st' (map_add_bulk V m kvs) E3 Hc') as (st'' & F1 & F2).
      cbn [hb_run spec_run]. rewrite E1, F1. destruct (spec_run (map_add_bulk V m kvs) r) as [dsr m''].
      cbn [fst snd] in *. exists st''. split; [rewrite E2; reflexivity|exact F2].
  Qed.
End HyperRefineSpec.
