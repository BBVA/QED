(* Re-opening the hyper tree (a new tree object on the same store: empty cache, recovery tiles loaded, the cache
   levels above them recomputed; balloon/hyper/rebuild.go) leaves tables that represent the same map. *)
From QV Require Import Base.Util Base.Facts Base.HashSig Hyper.HyperModel Hyper.HyperProofs Hyper.HyperBatch Hyper.HyperRefine
  Hyper.HyperRefineSpec Hyper.HyperFind.
From Coq Require Import Permutation.

Local Open Scope nat_scope.

Section HyperReopen.
  Variables D E V : Type.
  Variable H : hin D E V -> D.
  Variable limit nbits : nat.
  Notation ds := (dlist D E V H nbits).
  Notation sh := (sh D E V H limit nbits).
  Notation bt := (bt D V).
  Notation RepC := (RepC D E V H limit nbits).
  Notation SlotC := (SlotC D E V H limit nbits).
  Notation all_none := (all_none D V).
  Notation complete := (complete D V).
  Notation rslot := (rslot D V).
  Notation M0 := (M0 V). Notation M1 := (M1 V).
  Notation apC := (apC D V).
  Notation wr_okC := (wr_okC D V).

  Lemma is_prefix_bit pre b p : is_prefix (pre ++ [b]) p = true -> nth (length pre) p false = b.
  Proof. rewrite is_prefix_iff. intros [c ->]. rewrite <- app_snoc. apply nth_middle. Qed.

  Lemma tset_Forall (P : hpos * bt -> Prop) t p b : P (p, b) -> Forall P t -> Forall P (tset D V t p b).
  Proof.
    intros Hx. induction 1 as [|[q c] l Hq Hl IH]; cbn [tset]; [repeat constructor; exact Hx|].
    destruct (hpos_eqb p q) eqn:He; [|constructor; [exact Hq|exact IH]].
    apply hpos_eqb_eq in He. subst q. constructor; [exact Hx|exact Hl].
  Qed.

  Lemma SlotC_next (sC sA : hpos -> bt) h' pre' ct M' : limit < h' -> SlotC sC sA h' pre' ct M' ->
    RepC sC sA h' pre' (if Nat.eqb (h' mod 4) 0 then sC (pre', h') else ct) M'.
  Proof.
    intros Hlt Hs. destruct (Nat.eqb (h' mod 4) 0) eqn:Hb.
    - apply Nat.eqb_eq in Hb. pose proof (SlotC_loaded D E V H limit nbits sC sA h' pre' ct M' Hb Hs) as HR.
      rewrite (proj2 (Nat.ltb_lt _ _) Hlt) in HR. exact HR.
    - apply Nat.eqb_neq in Hb. apply SlotC_inner; assumption.
  Qed.

  Hypothesis limit4 : limit mod 4 = 0.

  Lemma root4 : (limit + 4) mod 4 = 0.
  Proof. rewrite <- Nat.add_mod_idemp_l by lia. rewrite limit4. reflexivity. Qed.
  Lemma next_root x : limit < x -> x mod 4 = 0 -> limit + 4 <= x.
  Proof.
    intros A C. pose proof (Nat.div_mod_eq x 4) as Ex. pose proof (Nat.div_mod_eq limit 4) as El.
    rewrite C in Ex. rewrite limit4 in El. lia.
  Qed.

  Hypothesis nbits4 : nbits mod 4 = 0.

  Lemma RepC_mono h : forall sC sC' sA pre t M,
    (forall q, under pre q -> all_none (sC q) -> all_none (sC' q)) ->
    (forall q, under pre q -> limit < snd q -> snd q < h -> snd q mod 4 = 0 -> sC q = sC' q) ->
    RepC sC sA h pre t M -> RepC sC' sA h pre t M.
  Proof using limit4 nbits4.
    (* limit4, nbits4: premises of the statement that no step uses (DESIGN 3.4) *)
    intros sC sC' sA pre t M HN HE. apply RepC_gen; [exact (conj HN HE)|intros q _; reflexivity].
  Qed.

  (* tile_witness states this unfolded *)
  Definition tiled (sC : hpos -> bt) (pre : list bool) (hh : nat) : Prop :=
    exists p, is_prefix pre p = true /\ length p + (limit + 4) = length pre + hh /\ rslot (sC (p, limit + 4)) <> None.

  Lemma tiled_up sC pre b h' : tiled sC (pre ++ [b]) h' -> tiled sC pre (S h').
  Proof.
    (* keeps the two section hypotheses out of this helper's statement, and so out of those of its users: lia would carry
       them in.  The other `clear`s of section hypotheses in this file are there for the same reason *)
    clear limit4 nbits4.
    intros (p & P1 & P2 & P3). exists p. split; [exact (is_prefix_app pre _ p P1)|]. split; [|exact P3].
    rewrite app_length in P2. cbn in P2. lia.
  Qed.

  (* the slot form of rep_tile (below), from rep_tile at the slot's height, so that the induction there can use it as well:
     at a batch root SlotC_next yields the table's batch, which is rep_tile's side premise *)
  Lemma slot_tile (sC sA : hpos -> bt) h' pre' ct M' :
    (forall t, (h' = limit + 4 -> t = sC (pre', h')) -> RepC sC sA h' pre' t M' -> M' <> [] -> tiled sC pre' h') ->
    limit < h' -> SlotC sC sA h' pre' ct M' -> M' <> [] -> tiled sC pre' h'.
  Proof.
    intros Hrep Hlt Hs. refine (Hrep _ _ (SlotC_next sC sA h' pre' ct M' Hlt Hs)). intros ->. rewrite root4. reflexivity.
  Qed.

  (* a non-empty part at or above the recovery height has a tile below it; at that height the subtree has to be the tile *)
  Lemma rep_tile (sC sA : hpos -> bt) h : forall pre t M, limit + 4 <= h -> (h = limit + 4 -> t = sC (pre, h)) ->
    RepC sC sA h pre t M -> M <> [] -> tiled sC pre h.
  Proof.
    clear nbits4.
    induction h as [|h' IH]; intros pre t M Hh Ht HR Hne; [lia|].
    destruct (Nat.eq_dec (S h') (limit + 4)) as [He|Hn].
    - exists pre. split; [apply is_prefix_refl|]. split; [lia|]. rewrite <- He, <- (Ht He).
      pose proof (RepC_reads D E V H limit nbits sC sA _ _ _ _ HR) as Hrd.
      exact (reads_some D E V H limit nbits _ _ _ _ Hrd Hne).
    - apply RepC_node in HR; [|exact Hne]. destruct HR as (l & r & _ & Hsl & Hsr).
      assert (Hslot : forall b ct M', SlotC sC sA h' (pre ++ [b]) ct M' -> M' <> [] -> tiled sC pre (S h')).
      { intros b ct M' Hs Hne'. apply (tiled_up sC pre b).
        exact (slot_tile sC sA h' _ ct M' (fun t => IH _ t M' ltac:(lia)) ltac:(lia) Hs Hne'). }
      destruct (M_split_ne V pre M Hne) as [H0|H1]; [exact (Hslot false l _ Hsl H0)|exact (Hslot true r _ Hsr H1)].
  Qed.

  Lemma tile_witness (sC sA : hpos -> bt) h : forall pre t M,
    limit + 4 < h -> RepC sC sA h pre t M -> M <> [] ->
    exists p, is_prefix pre p = true /\ length p + (limit + 4) = length pre + h /\ rslot (sC (p, limit + 4)) <> None.
  Proof using limit4 nbits4.
    (* nbits4: a premise of the statement that no step uses (DESIGN 3.4) *)
    (* above the recovery height the side premise of rep_tile is vacuous *)
    intros pre t M Hh. apply rep_tile; [lia|intros ->; lia].
  Qed.

  Section Rebuild.
    Variable st : hstate D V.                     (* the tables before the tree object is dropped *)
    Hypothesis lim_pos : 0 < limit.
    Definition s0 : hstate D V := {| hs_cache := hs_tiles D V st; hs_tiles := hs_tiles D V st; hs_store := hs_store D V st |}.
    (* sT: the cache a re-opening starts from, which is the tiles table; sC0, sA0: cache and store before *)
    Notation sT := (HyperRefine.sC0 D V s0).
    Notation sC0 := (sC0 D V st).
    Notation sA0 := (sA0 D V st).
    Notation rebuildW := (rebuild D E V H limit nbits ds s0).
    Notation rchildW := (rchildf D E V H limit nbits ds s0).

    Variable idx0 : list (list bool).
    Hypothesis tiles_only : forall q, snd q <> limit + 4 -> sT q = empty_batch D V.
    Hypothesis tiles_cache : forall pre, sT (pre, limit + 4) = sC0 (pre, limit + 4).
    Hypothesis idx_len : forall p, In p idx0 -> length p + (limit + 4) = nbits.
    Hypothesis idx_ne : forall p, In p idx0 -> rslot (sT (p, limit + 4)) <> None.
    Hypothesis idx_all : forall p, rslot (sT (p, limit + 4)) <> None -> In p idx0.

    Lemma sT_none q : all_none (sC0 q) -> all_none (sT q).
    Proof.
      intros Hn. destruct q as [p hq]. destruct (Nat.eq_dec hq (limit + 4)) as [->|Hne].
      - rewrite tiles_cache. exact Hn.
      - rewrite (tiles_only (p, hq) Hne). apply all_none_bempty.
    Qed.

    (* up to the recovery height a representation cannot tell the tiles from the cache: no batch root lies in between *)
    Lemma RepC_tile h pre t M : h <= limit + 4 -> RepC sC0 sA0 h pre t M -> RepC sT sA0 h pre t M.
    Proof.
      clear nbits4 lim_pos.
      intros Hh. apply RepC_gen.
      - split; [intros q _; apply sT_none|].
        intros q _ A B C. pose proof (next_root (snd q) A C). lia.
      - intros q _. reflexivity.
    Qed.

    Definition wr_okR (pre : list bool) (w : list (wr D V)) : Prop :=
      Forall (fun x => match x with WCache _ _ p b => under pre p /\ complete 5 b /\ limit + 4 < snd p | _ => False end) w.
    Lemma wr_okR_okC pre w : wr_okR pre w -> wr_okC pre w.
    Proof. apply Forall_impl. intros [p b|p b|p b]; [cbn; tauto|contradiction|contradiction]. Qed.
    Lemma wr_okR_store pre w : forall s, wr_okR pre w -> ap D V s w = s.
    Proof.
      induction w as [|x w IH]; intros s Hw; [reflexivity|]. inversion Hw as [|? ? Hx Hw']; subst.
      destruct x; try contradiction. exact (IH _ Hw').
    Qed.
    Lemma wr_okR_weaken pre b w : wr_okR (pre ++ [b]) w -> wr_okR pre w.
    Proof.
      apply Forall_impl. intros [p c|p c|p c]; [|contradiction|contradiction].
      intros (H1 & H2 & H3). split; [exact (under_app pre b _ H1)|split; assumption].
    Qed.

    Definition idx_ok (pre : list bool) (idx : list (list bool)) : Prop :=
      forall p, In p idx <-> In p idx0 /\ is_prefix pre p = true.

    (* the two filters of `rebuild` are the cases b = false and b = true *)
    Lemma idx_ok_child pre idx b : length pre + (limit + 4) < nbits -> idx_ok pre idx ->
      idx_ok (pre ++ [b]) (filter (fun k => if b then nth (length pre) k false else negb (nth (length pre) k false)) idx).
    Proof.
      clear limit4 nbits4 lim_pos.
      intros Hl Hok p. rewrite filter_In, (Hok p). split.
      - intros [[A B] C]. split; [exact A|].
        assert (C' : nth (length pre) p false = b) by (destruct b, (nth (length pre) p false); (reflexivity || discriminate)).
        rewrite <- C'. apply is_prefix_snoc; [exact B|]. pose proof (idx_len p A). lia.
      - intros [A B]. split; [split; [exact A|exact (is_prefix_app pre [b] p B)]|]. rewrite (is_prefix_bit pre b p B). destruct b; reflexivity.
    Qed.

    (* t is the empty (sub)batch the rebuild fills in; torig is what stood at this place in the cache before the tree
       object was dropped: only the map M it represented is used *)
    Definition rebuild_spec (h : nat) : Prop :=
      forall pre idx t torig isroot M,
        h + length pre = nbits -> limit + 4 < h ->
        (isroot = true -> h mod 4 = 0) -> (isroot = false -> h mod 4 <> 0) ->
        complete (if isroot then 5 else lv h) t -> all_none t ->
        RepC sC0 sA0 h pre torig M -> idx_ok pre idx -> idx <> [] ->
        exists t' w, rebuildW h pre idx t isroot = Some (sh h pre M, t', w) /\
          complete (if isroot then 5 else lv h) t' /\
          wr_okR pre w /\
          RepC (apC sT w) sA0 h pre t' M /\
          (isroot = true -> apC sT w (pre, h) = t').

    Definition rchild_spec (h' : nat) : Prop :=
      forall pre' ix ct ctorig M',
        h' + length pre' = nbits -> limit + 4 <= h' ->
        complete (lv h') ct -> all_none ct ->
        SlotC sC0 sA0 h' pre' ctorig M' -> idx_ok pre' ix ->
        exists ct' w, rchildW (rebuildW h') h' pre' ix ct = Some (sh h' pre' M', ct', w) /\
          complete (lv h') ct' /\
          wr_okR pre' w /\
          SlotC (apC sT w) sA0 h' pre' ct' M'.

    Lemma idx_of_empty pre idx : idx_ok pre idx -> idx <> [] -> (forall q, under pre q -> all_none (sC0 q)) -> False.
    Proof.
      intros Hok Hne He. destruct idx as [|p idx']; [contradiction|]. destruct (proj1 (Hok p) (or_introl eq_refl)) as [A B].
      apply (idx_ne p A). rewrite tiles_cache. apply all_none_rslot. exact (He (p, limit + 4) B).
    Qed.

    Lemma idx_empty_map h' pre' ctorig M' : limit + 4 <= h' ->
      SlotC sC0 sA0 h' pre' ctorig M' -> idx_ok pre' [] -> M' = [].
    Proof.
      clear nbits4 lim_pos.
      intros Hh Hs Hok. destruct M' as [|y M3]; [reflexivity|]. exfalso.
      (* a non-empty part has a tile below it *)
      destruct (slot_tile sC0 sA0 h' pre' ctorig _ (fun t => rep_tile sC0 sA0 h' pre' t _ Hh) ltac:(lia) Hs ltac:(discriminate))
        as (p & P1 & _ & P3).
      (* which idx_all puts into the index, here empty *)
      rewrite <- tiles_cache in P3. exact (proj2 (Hok p) (conj (idx_all p P3) P1)).
    Qed.

    Lemma rchild_of_rebuild h' : (limit + 4 < h' -> rebuild_spec h') -> rchild_spec h'.
    Proof.
      clear nbits4 lim_pos.
      intros Hnode pre' ix ct ctorig M' Hlen Hlim Hc Hn Hs Hok.
      unfold rchildf. destruct ix as [|p0 ix'].
      { (* no tile below: the slot stays empty *)
        pose proof (idx_empty_map h' pre' ctorig M' Hlim Hs Hok) as ->. apply SlotC_nil in Hs.
        unfold discard. rewrite (all_none_rslot D V ct Hn), sh_nil.
        exists ct, []. split; [reflexivity|]. split; [exact Hc|]. split; [constructor|].
        apply SlotC_nil. split; [exact Hn|]. intros q Hq.
        destruct (proj2 Hs q Hq) as [A B]. split; [apply sT_none; exact A|exact B]. }
      assert (Hne : M' <> []).
      { intros ->. apply SlotC_nil in Hs. apply (idx_of_empty pre' (p0 :: ix') Hok ltac:(discriminate)). intros q Hq. exact (proj1 (proj2 Hs q Hq)). }
      pose proof (SlotC_next sC0 sA0 h' pre' ctorig M' ltac:(lia) Hs) as HR.
      destruct (Nat.eqb (h' mod 4) 0) eqn:Hb.
      - (* the slot is the root of a cached batch *)
        apply Nat.eqb_eq in Hb. rewrite (load_cache D V limit s0 pre' h' ltac:(lia)).
        (* both batch-root cases end so *)
        assert (Hroot_slot : forall w, RepC (apC sT w) sA0 h' pre' (apC sT w (pre', h')) M' ->
                  SlotC (apC sT w) sA0 h' pre' (set_root D V ct (Some (SHash D V (sh h' pre' M')))) M').
        { intros w HR'. apply SlotC_root; [exact Hb|exact Hne|exact Hc|reflexivity|]. rewrite (proj2 (Nat.ltb_lt limit h')) by lia. exact HR'. }
        destruct (Nat.eqb h' (limit + 4)) eqn:He.
        + (* at the recovery height the batch loaded is the tile, sT (pre', limit + 4): tiles_cache makes it the batch HR speaks of *)
          apply Nat.eqb_eq in He. subst h'. rewrite <- tiles_cache in HR.
          pose proof (RepC_reads D E V H limit nbits sC0 sA0 _ _ _ _ HR) as Hrd.
          rewrite (reads_hash D E V H limit nbits _ _ _ _ Hrd).
          eexists. exists []. split; [reflexivity|]. split; [apply complete_set_root; exact Hc|]. split; [constructor|].
          exact (Hroot_slot [] (RepC_tile _ _ _ _ (le_n _) HR)).
        + (* a batch above the tiles: rebuilt from an empty one *)
          apply Nat.eqb_neq in He. assert (Hlt : limit + 4 < h') by lia.
          rewrite (tiles_only (pre', h') He).
          destruct (Hnode Hlt pre' (p0 :: ix') (empty_batch D V) _ true M' Hlen Hlt (fun _ => Hb) ltac:(discriminate)
                      (complete_bempty D V 5) (all_none_bempty D V 5) HR Hok ltac:(discriminate)) as (t' & w & E1 & _ & E3 & E4 & E5).
          rewrite E1. eexists. exists w.
          split; [reflexivity|]. split; [apply complete_set_root; exact Hc|]. split; [exact E3|].
          apply (Hroot_slot w). rewrite (E5 eq_refl). exact E4.
      - (* the slot continues its parent's batch *)
        apply Nat.eqb_neq in Hb.
        assert (Hlt : limit + 4 < h') by (destruct (Nat.eq_dec h' (limit + 4)) as [->|]; [rewrite root4 in Hb; contradiction|lia]).
        destruct (Hnode Hlt pre' (p0 :: ix') ct ctorig false M' Hlen Hlt ltac:(discriminate) (fun _ => Hb) Hc Hn HR Hok ltac:(discriminate))
          as (t' & w & E1 & E2 & E3 & E4 & _).
        exists t', w. split; [exact E1|]. split; [exact E2|]. split; [exact E3|]. apply SlotC_inner; assumption.
    Qed.

    Lemma rebuild_S h' pre idx s l r isroot :
      rebuildW (S h') pre idx (BNode D V s l r) isroot =
        match rchildW (rebuildW h') h' (pre ++ [false]) (filter (fun k => negb (nth (length pre) k false)) idx) l with
        | None => None
        | Some (dl, l1, w1) =>
            match rchildW (rebuildW h') h' (pre ++ [true]) (filter (fun k => nth (length pre) k false) idx) r with
            | None => None
            | Some (dr, r1, w2) =>
                let d := H (YNode dr dl (pre, S h')) in
                let t3 := BNode D V (Some (SHash D V d)) l1 r1 in
                Some (d, t3, w2 ++ w1 ++ (if isroot then [WCache D V (pre, S h') t3] else []))
            end
        end.
    Proof. reflexivity. Qed.

    Lemma rebuild_of_child h' : rchild_spec h' -> rebuild_spec (S h').
    Proof.
      clear nbits4 lim_pos.
      intros Hch pre idx t torig isroot M Hlen Hlim Hr1 Hr2 Hc Hn HR Hok Hine.
      rewrite lv_S in Hc by assumption. apply complete_S in Hc. destruct Hc as (s & l & r & -> & Hcl & Hcr).
      destruct Hn as (_ & Hnl & Hnr).
      assert (Hne : M <> []).
      { intros ->. apply RepC_nil in HR. apply (idx_of_empty pre idx Hok Hine). intros q Hq. exact (proj1 (proj2 HR q Hq)). }
      apply RepC_node in HR; [|exact Hne]. destruct HR as (lo & ro & _ & Hsl & Hsr).
      assert (Hpl : length pre + (limit + 4) < nbits) by lia.
      destruct (Hch (pre ++ [false]) _ l lo (M0 pre M) (length_child _ h' pre false Hlen) ltac:(lia) Hcl Hnl Hsl (idx_ok_child pre idx false Hpl Hok))
        as (l1 & w1 & A1 & A2 & A3 & A4).
      destruct (Hch (pre ++ [true]) _ r ro (M1 pre M) (length_child _ h' pre true Hlen) ltac:(lia) Hcr Hnr Hsr (idx_ok_child pre idx true Hpl Hok))
        as (r1 & w2 & B1 & B2 & B3 & B4).
      rewrite rebuild_S, A1, B1. cbv zeta.
      rewrite <- (sh_node D E V H limit nbits h' pre M) by (apply branches_above; [exact Hne|lia]).
      set (t3 := BNode D V (Some (SHash D V (sh (S h') pre M))) l1 r1).
      set (wroot := if isroot then [WCache D V (pre, S h') t3] else []).
      exists t3, (w2 ++ w1 ++ wroot). split; [reflexivity|].
      assert (Hct : complete (if isroot then 5 else lv (S h')) t3) by (rewrite lv_S by assumption; split; assumption).
      assert (HW : wr_okR pre (w2 ++ w1 ++ wroot)).
      { apply Forall_node; [exact (wr_okR_weaken pre false w1 A3)|exact (wr_okR_weaken pre true w2 B3)|].
        unfold wroot. destruct isroot.
        - constructor; [|constructor]. split; [apply under_self|]. split; [exact Hct|cbn; lia].
        - constructor. }
      split; [exact Hct|]. split; [exact HW|split].
      - (* RepC_assemble speaks of the store after the writes, rebuild_spec of sA0 *)
        rewrite <- (wr_okR_store pre _ sA0 HW).
        assert (Hroot : Forall (fun x => fst (wr_pos D V x) = (pre, S h')) wroot) by (unfold wroot; destruct isroot; repeat constructor).
        apply (RepC_assemble D E V H limit nbits sT sA0 pre h' l1 r1 w1 w2 wroot M Hne (wr_okR_okC _ _ A3) (wr_okR_okC _ _ B3) Hroot).
        + rewrite (wr_okR_store _ w1 _ A3). exact A4.
        + rewrite (wr_okR_store _ w2 _ B3). exact B4.
      - (* the root's cache write comes last: it is what the table holds at (pre, S h') afterwards *)
        intros ->. unfold wroot. rewrite app_assoc. exact (apg_last D V _ _ (apC1_eq D V) (w2 ++ w1) (WCache D V (pre, S h') t3) [] sT eq_refl (Forall_nil _)).
    Qed.

    Theorem rebuild_correct : forall h, limit + 4 < h -> rebuild_spec h.
    Proof using limit4 nbits4 lim_pos tiles_only tiles_cache idx_len idx_ne idx_all.
      (* nbits4, lim_pos: premises of the statement that no step uses (DESIGN 3.4) *)
      induction h as [|h IH]; intros Hl; [lia|]. apply rebuild_of_child. apply rchild_of_rebuild. exact IH.
    Qed.
  End Rebuild.

  Definition tile_entry_ok (pb : hpos * bt) : Prop :=
    snd (fst pb) = limit + 4 /\ length (fst (fst pb)) + (limit + 4) = nbits /\ rslot (snd pb) <> None.
  (* the tiles table holds exactly the non-empty cached batches at the recovery height *)
  Definition TInv (st : hstate D V) : Prop :=
    (forall pre, tget D V (hs_tiles D V st) (pre, limit + 4) = tget D V (hs_cache D V st) (pre, limit + 4)) /\
    Forall tile_entry_ok (hs_tiles D V st).

  Lemma rslot_empty : rslot (empty_batch D V) = None.
  Proof. reflexivity. Qed.

  Section TileFacts.
    Variable st : hstate D V.
    Hypothesis Htiles : Forall tile_entry_ok (hs_tiles D V st).
    Notation tiles := (hs_tiles D V st).
    Definition idx_of : list (list bool) := map (fun pb : hpos * bt => fst (fst pb)) tiles.

    Lemma tf_found q b : assoc hpos_eqb q tiles = Some b -> tile_entry_ok (q, b).
    Proof.
      intros Ha. rewrite Forall_forall in Htiles. exact (Htiles _ (assoc_Some_In hpos_eqb hpos_eqb_eq _ _ _ Ha)).
    Qed.

    Lemma tf_only q : snd q <> limit + 4 -> tget D V tiles q = empty_batch D V.
    Proof.
      intros Hne. unfold tget. destruct (assoc hpos_eqb q tiles) as [b|] eqn:Ha; [|reflexivity].
      destruct (tf_found q b Ha) as [A _]. contradiction.
    Qed.
    Lemma tf_len p : In p idx_of -> length p + (limit + 4) = nbits.
    Proof.
      intros Hin. apply in_map_iff in Hin. destruct Hin as (pb & <- & Hin). rewrite Forall_forall in Htiles.
      exact (proj1 (proj2 (Htiles pb Hin))).
    Qed.
    Lemma tf_ne p : In p idx_of -> rslot (tget D V tiles (p, limit + 4)) <> None.
    Proof.
      intros Hin. apply in_map_iff in Hin. destruct Hin as ([[p' h'] b] & <- & Hin).
      pose proof (proj1 (Forall_forall _ _) Htiles _ Hin) as (A & _ & _). cbn in A. subst h'. cbn [fst].
      (* tiles need not have distinct positions: tget may find another entry b' at this position, which Htiles covers too *)
      destruct (proj1 (assoc_dom hpos_eqb hpos_eqb_eq _ _) (in_map fst _ _ Hin)) as [b' Ha].
      unfold tget. cbn [fst] in Ha. rewrite Ha. exact (proj2 (proj2 (tf_found _ _ Ha))).
    Qed.
    Lemma tf_all p : rslot (tget D V tiles (p, limit + 4)) <> None -> In p idx_of.
    Proof.
      unfold tget. destruct (assoc hpos_eqb (p, limit + 4) tiles) as [b|] eqn:Ha; [|intros Hc; destruct (Hc rslot_empty)].
      intros _. apply in_map_iff. exists ((p, limit + 4), b). split; [reflexivity|exact (assoc_Some_In hpos_eqb hpos_eqb_eq _ _ _ Ha)].
    Qed.
  End TileFacts.

  Hypothesis limit_pos : 0 < limit.
  Hypothesis limit_lt : limit < nbits.

  Definition T1 (s : hstate D V) : Prop :=
    forall pre, tget D V (hs_tiles D V s) (pre, limit + 4) = tget D V (hs_cache D V s) (pre, limit + 4).
  Definition WSync (w : list (wr D V)) : Prop :=
    (forall s, T1 s -> T1 (fold_left (apply_wr D V) w s)) /\
    Forall (fun x => match x with WTile _ _ p b => tile_entry_ok (p, b) | _ => True end) w.

  Lemma wsync_nil : WSync [].
  Proof. split; [intros s Hs; exact Hs|constructor]. Qed.
  Lemma wsync_app w1 w2 : WSync w1 -> WSync w2 -> WSync (w1 ++ w2).
  Proof.
    intros [A1 A2] [B1 B2]. split; [|apply Forall_app; split; assumption].
    intros s Hs. rewrite fold_left_app. apply B1, A1, Hs.
  Qed.
  Lemma wsync_store p b : WSync [WStore D V p b].
  Proof. split; [intros s Hs pre; exact (Hs pre)|repeat constructor]. Qed.
  Lemma wsync_cache_other p b : snd p <> limit + 4 -> WSync [WCache D V p b].
  Proof.
    intros Hne. split; [|repeat constructor]. intros s Hs pre. cbn [fold_left apply_wr hs_tiles hs_cache].
    rewrite tget_tset. destruct (hpos_eqb (pre, limit + 4) p) eqn:He; [|exact (Hs pre)].
    apply hpos_eqb_eq in He. subst p. contradiction.
  Qed.
  Lemma wsync_cache_tile p b : tile_entry_ok (p, b) -> WSync [WCache D V p b; WTile D V p b].
  Proof.
    intros Hok. split; [|constructor; [exact I|constructor; [exact Hok|constructor]]]. intros s Hs pre. cbn [fold_left apply_wr hs_tiles hs_cache].
    rewrite !tget_tset. destruct (hpos_eqb (pre, limit + 4) p); [reflexivity|exact (Hs pre)].
  Qed.

  Lemma wsync_TInv w s : WSync w -> TInv s -> TInv (fold_left (apply_wr D V) w s).
  Proof.
    intros [S1 S2] [HT1 HT2]. split; [exact (S1 s HT1)|]. revert S2 HT2.
    apply (fold_left_inv (apply_wr D V) (fun s' => Forall tile_entry_ok (hs_tiles D V s'))).
    intros s' [p b|p b|p b] Hx Hs; cbn [apply_wr hs_tiles]; [exact Hs|apply tset_Forall; assumption|exact Hs].
  Qed.

  Lemma wr_okR_wsync pre w : wr_okR pre w -> WSync w.
  Proof.
    clear limit4 nbits4 limit_pos limit_lt.
    induction 1 as [|[p b|p b|p b] w Hx _ IH]; [apply wsync_nil|..]; try contradiction.
    apply (wsync_app [_] w); [|exact IH]. apply wsync_cache_other. destruct Hx as (_ & _ & Hx). lia.
  Qed.

  (* destructing hs_tiles st in hb_reopen would also rewrite it inside s0, idx_of and TInv: the test goes behind a boolean.
     Without tiles s0 st is the state hb_reopen returns *)
  Definition tiles_empty (st : hstate D V) : bool := match hs_tiles D V st with [] => true | _ => false end.
  Lemma hb_reopen_eq st :
    hb_reopen D E V H limit nbits ds st =
      if tiles_empty st then Some (s0 st)
      else if Nat.eqb nbits (limit + 4) then Some (s0 st)
      else match rebuild D E V H limit nbits ds (s0 st) nbits [] (idx_of st) (load D V limit (s0 st) ([], nbits)) true with
           | Some (_, _, w) => Some (fold_left (apply_wr D V) w (s0 st))
           | None => None
           end.
  Proof. unfold hb_reopen, tiles_empty, s0, idx_of. destruct (hs_tiles D V st); reflexivity. Qed.
  Lemma tiles_emptyP st : if tiles_empty st then hs_tiles D V st = [] else hs_tiles D V st <> [].
  Proof. unfold tiles_empty. destruct (hs_tiles D V st); [reflexivity|discriminate]. Qed.

  (* C08.  NewHyperTree on an existing store (RebuildCache from the recovery tiles): the tables still represent M, and the
     tiles stay in step with the cache *)
  Theorem reopen_refines st M :
    RepState D E V H limit nbits st M -> TInv st ->
    exists st', hb_reopen D E V H limit nbits ds st = Some st' /\ RepState D E V H limit nbits st' M /\ TInv st'.
  Proof.
    intros (HR & Hwa & Hwc) [HT1 HT2].
    pose proof (next_root nbits limit_lt nbits4) as Hle.
    set (z := s0 st).
    (* the cache of z is the tiles table *)
    assert (Honly : forall q, snd q <> limit + 4 -> sC0 D V z q = empty_batch D V) by exact (tf_only st HT2).
    assert (Hcache : forall pre, sC0 D V z (pre, limit + 4) = sC0 D V st (pre, limit + 4)) by exact HT1.
    assert (Hzc : forall q, complete 5 (sC0 D V z q)).
    { intros [p hq]. destruct (Nat.eq_dec hq (limit + 4)) as [->|Hne]; [rewrite Hcache; apply Hwc|rewrite (Honly (p, hq) Hne); apply complete_bempty]. }
    assert (HTz : TInv z) by (split; [intros pre; reflexivity|exact HT2]).
    rewrite hb_reopen_eq. fold z. pose proof (tiles_emptyP st) as Hemp.
    (* where nothing is rebuilt z is returned: RepC for z gives the conclusion *)
    assert (Hfin : RepC (sC0 D V z) (sA0 D V st) nbits [] (sC0 D V z ([], nbits)) M ->
              exists st', Some z = Some st' /\ RepState D E V H limit nbits st' M /\ TInv st').
    { intros HRz. exists z. split; [reflexivity|]. split; [|exact HTz]. split; [exact HRz|]. split; [exact Hwa|exact Hzc]. }
    destruct (tiles_empty st).
    - (* nothing was ever inserted *)
      apply Hfin.
      assert (Htl : forall q, sC0 D V z q = empty_batch D V).
      { intros q. unfold z, s0, HyperRefine.sC0. cbn [hs_cache]. rewrite Hemp. reflexivity. }
      assert (HM : M = []).
      { destruct M as [|x M']; [reflexivity|]. exfalso.
        destruct (rep_tile _ _ nbits [] _ _ Hle (fun _ => eq_refl) HR ltac:(discriminate)) as (p & _ & _ & Hp).
        apply Hp. rewrite <- Hcache, Htl. reflexivity. }
      subst M. apply RepC_nil in HR. destruct HR as [_ HR].
      apply RepC_nil. rewrite Htl. split; [apply all_none_bempty|]. intros q Hq.
      split; [rewrite Htl; apply all_none_bempty|exact (proj2 (HR q Hq))].
    - destruct (Nat.eqb nbits (limit + 4)) eqn:He; [apply Nat.eqb_eq in He|apply Nat.eqb_neq in He].
      + (* one cache level: the tile is the root batch *)
        apply Hfin. replace (sC0 D V z ([], nbits)) with (sC0 D V st ([], nbits)) by (rewrite He; symmetry; apply Hcache).
        exact (RepC_tile st Honly Hcache nbits [] _ M ltac:(lia) HR).
      + (* the cache levels above the tiles are rebuilt, the root batch from an empty one *)
        assert (Hlt : limit + 4 < nbits) by lia.
        assert (Hne : idx_of st <> []) by (intros Hi; exact (Hemp (map_eq_nil _ _ Hi))).
        rewrite (load_cache D V limit z [] nbits limit_lt), (Honly ([], nbits) He).
        (* idx0 := idx_of st; every tile lies below [] *)
        assert (Hok : idx_ok (idx_of st) [] (idx_of st)) by (intros p; cbn; tauto).
        pose proof (rebuild_correct st limit_pos (idx_of st) Honly Hcache (tf_len st HT2) (tf_ne st HT2) (tf_all st) nbits Hlt)
          as Hspec.   (* rebuild_spec at the root *)
        destruct (Hspec [] (idx_of st) (empty_batch D V) (sC0 D V st ([], nbits)) true M
                    (Nat.add_0_r nbits) Hlt (fun _ => nbits4) ltac:(discriminate) (complete_bempty D V 5) (all_none_bempty D V 5) HR Hok Hne)
          as (t' & w & E1 & _ & E3 & E4 & E5).
        fold z in E1. rewrite E1. eexists. split; [reflexivity|]. split; [|exact (wsync_TInv w z (wr_okR_wsync [] w E3) HTz)].
        apply (RepState_after D E V H limit nbits z w t' M (wr_okR_okC [] w E3) Hwa Hzc); [|exact (E5 eq_refl)].
        rewrite (wr_okR_store [] w _ E3). exact E4.
  Qed.

  Section Writes.
    Variable st : hstate D V.
    Notation nodeW := (node D E V H limit nbits ds st).
    Notation childW := (childf D E V H limit nbits ds st).
    Notation innerW := (innerf D E V H limit nbits ds st).
    Definition rec_ok (h' : nat) (rec : bool -> list bool -> list (key * V) -> bt -> bool -> option (res D V)) : Prop :=
      forall c pre' lv ct isr d t' w, h' + length pre' = nbits -> rec c pre' lv ct isr = Some (d, t', w) -> WSync w.

    Lemma childf_wsync rec cached h' pre' lvs ct d ct' w : rec_ok h' rec -> h' + length pre' = nbits ->
      childW rec cached h' pre' lvs ct = Some (d, ct', w) -> WSync w.
    Proof.
      intros Hrec Hlen.
      assert (Hvia : forall c, via D V limit st rec c h' pre' lvs ct = Some (d, ct', w) -> WSync w).
      { intros c. unfold via. destruct (rec c pre' lvs _ true) as [[[d0 t0] w0]|] eqn:Hr; [|discriminate].
        intros Heq. injection Heq as _ _ <-. exact (Hrec _ _ _ _ _ _ _ _ Hlen Hr). }
      assert (Hfresh : forall k0 v0, fresh D E V H h' pre' k0 v0 ct = Some (d, ct', w) -> WSync w).
      { intros k0 v0 Heq. injection Heq as _ _ <-. apply wsync_store. }
      destruct lvs as [|[k0 v0] rest].
      - rewrite childf_nil. destruct (discard D E V H nbits ds ct h'); [|discriminate]. intros Heq. injection Heq as _ _ <-. apply wsync_nil.
      - assert (Hne : (k0, v0) :: rest <> []) by discriminate.
        destruct (Nat.eq_dec (h' mod 4) 0) as [Hb|Hb]; [|rewrite childf_inner by assumption; exact (Hrec _ _ _ _ _ _ _ _ Hlen)].
        destruct cached; [rewrite childf_root_cached by assumption; apply Hvia|].
        destruct h' as [|h''].
        + (* at the bottom the walk fails on more than one leaf *)
          destruct rest; [rewrite childf_bottom; apply Hfresh|discriminate].
        + rewrite childf_root_store by exact Hb.
          destruct rest as [|y rest'], (rslot ct) as [x|]; [apply Hvia|apply Hfresh|apply Hvia|apply Hvia].
    Qed.

    Lemma innerf_wsync rec cached h' pre isroot lvs l0 r0 d t' w : rec_ok h' rec -> S h' + length pre = nbits ->
      innerW rec cached h' pre isroot lvs l0 r0 = Some (d, t', w) -> WSync w.
    Proof.
      clear limit4 nbits4 limit_pos limit_lt.
      intros Hrec Hlen. unfold innerf. destruct (split V pre lvs) as [ll lr].
      destruct (childW rec cached h' (pre ++ [false]) ll l0) as [[[dl l1] w1]|] eqn:E1; [|discriminate].
      destruct (childW rec cached h' (pre ++ [true]) lr r0) as [[[dr r1] w2]|] eqn:E2; [|discriminate].
      (* the test is kept folded: injection would reduce it to a match that the destruct below does not find *)
      cbv zeta. set (e := Nat.eqb (S h') (limit + 4)). intros Heq. injection Heq as _ _ <-.
      apply wsync_app; [exact (childf_wsync _ _ _ _ _ _ _ _ _ Hrec (length_child _ _ _ _ Hlen) E2)|].
      apply wsync_app; [exact (childf_wsync _ _ _ _ _ _ _ _ _ Hrec (length_child _ _ _ _ Hlen) E1)|].
      destruct isroot; [|apply wsync_nil]. destruct cached; [|apply wsync_store].
      unfold e. destruct (Nat.eqb (S h') (limit + 4)) eqn:He.
      - apply Nat.eqb_eq in He. apply wsync_cache_tile. unfold tile_entry_ok. cbn [fst snd]. split; [exact He|]. split; [lia|discriminate].
      - apply Nat.eqb_neq in He. apply wsync_cache_other. exact He.
    Qed.

    Lemma node_wsync h : rec_ok h (nodeW h).
    Proof using limit4 nbits4 limit_pos limit_lt.
      (* limit4, nbits4, limit_pos, limit_lt: premises of the statement that no step uses (DESIGN 3.4) *)
      induction h as [|h' IH]; intros c pre lvs t isr d t' w Hlen Hn; [destruct t; discriminate|].
      destruct t as [|s l r]; [discriminate|]. destruct c.
      - rewrite nodeC_S in Hn. exact (innerf_wsync _ _ _ _ _ _ _ _ _ _ _ IH Hlen Hn).
      - rewrite node_S in Hn. unfold cont in Hn.
        destruct (sel D V lvs s l r) as [[[lvs0 s0] l0] r0].
        destruct lvs0 as [|[k v] [|y lvs1]]; try exact (innerf_wsync _ _ _ _ _ _ _ _ _ _ _ IH Hlen Hn).
        destruct s0; [exact (innerf_wsync _ _ _ _ _ _ _ _ _ _ _ IH Hlen Hn)|].
        (* folded for the same reason as in innerf_wsync *)
        cbv zeta in Hn. set (e := Nat.eqb (S h' mod 4) 0) in Hn. injection Hn as _ _ <-. destruct e; [apply wsync_store|apply wsync_nil].
    Qed.
  End Writes.

  Lemma hb_insert_TInv st kvs d st' : hb_insert D E V H limit nbits ds st kvs = Some (d, st') -> TInv st -> TInv st'.
  Proof.
    unfold hb_insert, walk_insert. destruct (bulk_dedup V [] kvs) as [|x L']; [discriminate|].
    destruct (node D E V H limit nbits ds st nbits (Nat.ltb limit nbits) [] (x :: L') (load D V limit st ([], nbits)) true) as [[[d0 t0] w0]|] eqn:En; [|discriminate].
    intros Heq. injection Heq as _ <-. exact (wsync_TInv w0 st (node_wsync st nbits _ [] _ _ true d0 t0 w0 (Nat.add_0_r nbits) En)).
  Qed.

  (* [Represents] with [TInv] beside it: the recovery tiles are in step with the cache, which a re-opening rebuilds from
     them alone *)
  Definition RepresentsT (st : hstate D V) (m : list (key * V)) : Prop :=
    exists M, Permutation M m /\ NoDup (map fst M) /\ keys_ok V nbits [] M /\ RepState D E V H limit nbits st M /\ TInv st.

  Lemma RepresentsT_iff st m : RepresentsT st m <-> Represents D E V H limit nbits st m /\ TInv st.
  Proof.
    split.
    - intros (M & A & B & C & R & T). split; [exists M; tauto|exact T].
    - intros [(M & A & B & C & R) T]. exists M. tauto.
  Qed.

  Theorem hinit_RepresentsT : RepresentsT (hinit D V) [].
  Proof. apply RepresentsT_iff. split; [apply hinit_Represents|]. split; [intros pre; reflexivity|constructor]. Qed.

  Theorem hb_insert_specT st m kvs :
    RepresentsT st m -> kvs <> [] -> Forall (fun kv => length (fst kv) = nbits) kvs ->
    exists d st', hb_insert D E V H limit nbits ds st kvs = Some (d, st') /\
      d = yroot D E V H ds (ytree_of D E V H limit nbits ds (map_add_bulk V m kvs)) /\
      RepresentsT st' (map_add_bulk V m kvs).
  Proof.
    intros HR Hne Hlen. apply RepresentsT_iff in HR. destruct HR as [HR HT].
    destruct (hb_insert_spec D E V H limit nbits limit4 nbits4 limit_pos limit_lt st m kvs HR Hne Hlen) as (d & st' & E1 & E2 & E3).
    exists d, st'. split; [exact E1|]. split; [exact E2|]. apply RepresentsT_iff. split; [exact E3|exact (hb_insert_TInv _ _ _ _ E1 HT)].
  Qed.

  Theorem hb_reopen_specT st m : RepresentsT st m ->
    exists st', hb_reopen D E V H limit nbits ds st = Some st' /\ RepresentsT st' m.
  Proof.
    intros (M & A & B & C & R & T). destruct (reopen_refines st M R T) as (st' & E1 & E2 & E3).
    exists st'. split; [exact E1|]. exists M. tauto.
  Qed.

  Inductive hop := HIns (kvs : list (key * V)) | HReopen.
  Fixpoint hb_runT (st : hstate D V) (ops : list hop) : option (list D * hstate D V) :=
    match ops with
    | [] => Some ([], st)
    | HIns kvs :: r =>
        match hb_insert D E V H limit nbits ds st kvs with
        | None => None
        | Some (d, st') => match hb_runT st' r with Some (dsr, st'') => Some (d :: dsr, st'') | None => None end
        end
    | HReopen :: r =>
        match hb_reopen D E V H limit nbits ds st with
        | None => None
        | Some st' => hb_runT st' r
        end
    end.
  Definition calls_of (ops : list hop) : list (list (key * V)) :=
    flat_map (fun o => match o with HIns kvs => [kvs] | HReopen => [] end) ops.
  Definition op_ok (o : hop) : Prop :=
    match o with HIns kvs => kvs <> [] /\ Forall (fun kv => length (fst kv) = nbits) kvs | HReopen => True end.

  (* C08.  The digests returned over any sequence of insertions and re-creations of the tree object are those of the
     published construction over the insertions alone: re-creation is invisible *)
  Theorem hb_runT_spec ops : forall st m,
    RepresentsT st m -> Forall op_ok ops ->
    exists st', hb_runT st ops = Some (fst (spec_run D E V H limit nbits m (calls_of ops)), st') /\
                RepresentsT st' (snd (spec_run D E V H limit nbits m (calls_of ops))).
  Proof.
    induction ops as [|o r IH]; intros st m HR Hc.
    - exists st. split; [reflexivity|exact HR].
    - inversion Hc as [|? ? Ho Hc']; subst. destruct o as [kvs|].
      + destruct Ho as [Hne Hl]. destruct (hb_insert_specT st m kvs HR Hne Hl) as (d & st' & E1 & E2 & E3).
        destruct (IH st' (map_add_bulk V m kvs) E3 Hc') as (st'' & F1 & F2).
        cbn [hb_runT calls_of flat_map app]. fold (calls_of r). cbn [spec_run]. rewrite E1, F1.
        destruct (spec_run D E V H limit nbits (map_add_bulk V m kvs) (calls_of r)) as [dsr m''].
        cbn [fst snd] in *. exists st''. split; [rewrite E2; reflexivity|exact F2].
      + destruct (hb_reopen_specT st m HR) as (st' & E1 & E2). destruct (IH st' m E2 Hc') as (st'' & F1 & F2).
        cbn [hb_runT]. rewrite E1. exists st''. split; assumption.
  Qed.

  (* C08.  From the empty tables, with the answer to every later query *)
  Theorem hb_runT_from_empty ops key :
    Forall op_ok ops -> length key = nbits ->
    exists st', hb_runT (hinit D V) ops = Some (fst (spec_run D E V H limit nbits [] (calls_of ops)), st') /\
      hb_find D E V H limit nbits ds st' key =
        hyper_find D E V H nbits ds (ytree_of D E V H limit nbits ds (snd (spec_run D E V H limit nbits [] (calls_of ops)))) key.
  Proof.
    intros Hc Hkey. destruct (hb_runT_spec ops (hinit D V) [] hinit_RepresentsT Hc) as (st' & E1 & E2).
    exists st'. split; [exact E1|].
    apply (hb_find_spec D E V H limit nbits limit4 nbits4 limit_pos limit_lt st' _ key (proj1 (proj1 (RepresentsT_iff _ _) E2)) Hkey).
  Qed.
End HyperReopen.
