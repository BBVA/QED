(* C02 - A membership verification that succeeds is always a true membership.
   Statements only; the proofs are `exact` lemmas of Balloon/BalloonProofs.v, Balloon/AutoVerifyProofs.v, Base/Enc.v and
   History/HistGuard.v. *)
From QV Require Import Base.Util Base.HashSig History.HistModel History.HistSpec Hyper.HyperModel
  Balloon.Balloon Balloon.BalloonProofs Balloon.AutoVerify Balloon.AutoVerifyProofs Properties.Instance Base.Layout Base.Enc History.HistGuard.

Section C02.
  Variables D E V : Type.
  Variable H : hin D E V -> D.
  Variable nbits : nat.
  Variable kbits : E -> key.
  Variable vval : N -> V.
  Variable D_eqb : D -> D -> bool.
  Variable E_eqb : E -> E -> bool.
  Hypothesis H_inj : forall a b, H a = H b -> a = b.
  Hypothesis D_eqb_eq : forall a b, D_eqb a b = true <-> a = b.

  (* For every log A, every answer a (every field, both audit paths: arbitrary), every digest d, every
     authentic history digest (root A v, any version v) and ANY hyper digest: if the client verifier
     (protocol.ToBalloonProof + MembershipProof.DigestVerify) accepts, then the answer claims existence,
     the claimed version is not later than the queried one and exists in the log, and the event inserted at
     the claimed version is exactly d.  In particular no answer claiming absence, and no answer for a digest
     that was never inserted at the claimed version, is accepted. *)
  Theorem C02_digest_verify_sound (A : N -> E) (a : answer D E V) (d : E) (v : N) (hyper_digest : D) :
    digest_verify D E V H nbits kbits vval D_eqb E_eqb a d (root D E V H A v) hyper_digest = Accept ->
    a_exists _ _ _ a = true /\ a_actual _ _ _ a <= a_query _ _ _ a /\
    d = A (a_actual _ _ _ a) /\ a_actual _ _ _ a <= v.
  Proof. exact (digest_verify_sound D E V H nbits kbits vval D_eqb E_eqb H_inj D_eqb_eq A a d v hyper_digest). Qed.

  (* The client's MembershipAutoVerify(d, v) (client/client.go: it fetches the answer, picks the published snapshots by
     the versions the answer carries and calls DigestVerify) against a snapshot store that publishes the snapshots of the
     log A: if it returns true, d was inserted at a version not later than the version v THE CALLER asked about. *)
  Theorem C02_auto_verify_sound (A : N -> E) (S : N -> option (D * D)) (a : answer D E V) (d : E) (v : N) :
    authentic D E V H A S ->
    auto_verify D E V H nbits kbits vval D_eqb E_eqb true S (Some v) a d = Accept ->
    a_exists _ _ _ a = true /\ d = A (a_actual _ _ _ a) /\ a_actual _ _ _ a <= v.
  Proof. exact (auto_verify_sound D E V H nbits kbits vval D_eqb E_eqb H_inj D_eqb_eq A S a d v). Qed.

  (* IncrementalAutoVerify(s, e): an accepted answer is the proof of the pair that was asked for.  0 < pe excludes the
     degenerate proof with end version 0, which reads both digests from one path entry (C03_incremental_sound) *)
  Theorem C02_incr_auto_verify_sound (A : N -> E) (S : N -> option (D * D)) (s e : N) (p : list (pos * D)) (ps pe : N) :
    authentic D E V H A S -> ps <= pe -> 0 < pe ->
    incr_auto_verify D E V H D_eqb S s e p ps pe = Accept -> ps = s /\ pe = e.
  Proof. exact (incr_auto_verify_sound D E V H D_eqb H_inj D_eqb_eq A S s e p ps pe). Qed.
End C02.

(* Non-vacuity: on the concrete instance the premises hold and a genuine answer is accepted, so the
   implication is not empty. *)
Example C02_premises_hold :
  (forall a b, H4 a = H4 b -> a = b) /\ (forall a b, D4_eqb a b = true <-> a = b) /\
  (exists a, query_membership_consistency D4 E4 N H4 4 ds4 kbits4 vid st2 (e4 4) 2 = QOk _ _ _ a /\
     digest_verify D4 E4 N H4 4 kbits4 vid D4_eqb E4_eqb a (e4 4)
       (root D4 E4 N H4 (logf E4 (e4 0) evs2) 2) (hyper_digest D4 E4 N H4 ds4 st2) = Accept).
Proof.
  split; [exact H4_inj|]. split; [exact D4_eqb_eq|].
  eexists. split; vm_compute; reflexivity.
Qed.

(* The pinned code (before fix 38c5ded) did not compare the answer's version with the requested one: the statement above
   is FALSE of it - a genuine answer for version 2 makes a query at version 0 return true for an event inserted at
   version 1.  With the comparison the same answer is rejected for 0 and accepted for 2. *)
Definition S4 (q : N) : option (D4 * D4) := Some (root D4 E4 N H4 (logf E4 (e4 0) evs2) q, hyper_digest D4 E4 N H4 ds4 st2).
Example C02_auto_verify_pinned_refuted :
  authentic D4 E4 N H4 (logf E4 (e4 0) evs2) S4 /\
  exists a, query_membership_consistency D4 E4 N H4 4 ds4 kbits4 vid st2 (e4 4) 2 = QOk _ _ _ a /\
    a_actual _ _ _ a = 1 /\
    auto_verify D4 E4 N H4 4 kbits4 vid D4_eqb E4_eqb false S4 (Some 0) a (e4 4) = Accept /\
    auto_verify D4 E4 N H4 4 kbits4 vid D4_eqb E4_eqb true S4 (Some 0) a (e4 4) = Reject /\
    auto_verify D4 E4 N H4 4 kbits4 vid D4_eqb E4_eqb true S4 (Some 2) a (e4 4) = Accept.
Proof.
  split; [intros q h y Hs; unfold S4 in Hs; injection Hs as <- _; reflexivity|].
  eexists. split; [vm_compute; reflexivity|]. vm_compute. repeat split.
Qed.

(* What the premise H_inj means at byte level (DESIGN 3.2).  [encG] is the byte layout of the eight formats the
   code hashes (its Uint63 instance is what every correspondence run executes with SHA-256).  On well-formed inputs
   (32-byte digests and values, 256-bit keys, heights < 2^16, indexes < 2^64, partial nodes above the leaves) the
   layout is unambiguous, so two different inputs with one digest are an explicit collision of the hash function:
   for H = SHA-256 ∘ enc the premise H_inj fails on well-formed inputs only if SHA-256 collides.  (Inputs that are NOT
   well formed are ambiguous, [Enc.unchecked_length_is_ambiguous]: the history verifier rejects audit-path entries of
   another length since fix 10a81c4, History/HistChecked.v; for the hyper verifier, which does not, it stays an assumption.) *)
Theorem C02_hash_formats_unambiguous (B : Type) (byte : N -> B) :
  (forall x y, x < 256 -> y < 256 -> byte x = byte y -> x = y) ->
  forall x y, hwf_prod B x -> hwf_prod B y -> encG B byte x = encG B byte y -> x = y.
Proof. exact (enc_inj_production B byte). Qed.

Theorem C02_injectivity_failure_is_a_hash_collision (B : Type) (byte : N -> B) :
  (forall x y, x < 256 -> y < 256 -> byte x = byte y -> x = y) ->
  forall (X : Type) (hashf : list B -> X) x y,
  hwf_prod B x -> hwf_prod B y -> x <> y -> hashf (encG B byte x) = hashf (encG B byte y) ->
  exists m m' : list B, m <> m' /\ hashf m = hashf m'.
Proof. exact (H_inj_or_hash_collision B byte). Qed.

Example C02_formats_premises_hold :
  (forall x y : N, x < 256 -> y < 256 -> id x = id y -> x = y) /\
  hwf_prod N (YNode (repeat 1 32) (repeat 2 32) (repeat true 253, 3%nat)) /\
  hwf_prod N (HLeaf (repeat 3 32) 7) /\ hwf_prod N (HPart (repeat 3 32) 6 1).
Proof. split; [exact byte_inj_N|]. pose proof wf_inputs_exist as W. tauto. Qed.

(* Why the guard "ActualVersion <= QueryVersion" of DigestVerify is essential and cannot be left to the history verifier
   (premise idx <= v' of the soundness lemma; seeded change C02-9 replaced it by an in-tree check): for an index beyond the
   version but inside the tree's capacity the recomputed history root does not depend on the digest at all - for EVERY audit
   path.  A forger who supplies the genuine left siblings gets his answer accepted for any digest. *)
Theorem C02_history_verifier_ignores_digest_beyond_version (D E V : Type) (H : hin D E V -> D) (path : cache D) (idx v : N) (e e' : E) :
  v < idx -> idx < pow2 (bitlen v) ->
  membership_root D E V H path idx v e = membership_root D E V H path idx v e'.
Proof. exact (membership_root_ignores_digest_beyond_version D E V H path idx v e e'). Qed.

Print Assumptions C02_digest_verify_sound.
Print Assumptions C02_auto_verify_sound.
Print Assumptions C02_incr_auto_verify_sound.
Print Assumptions C02_hash_formats_unambiguous.
Print Assumptions C02_injectivity_failure_is_a_hash_collision.
Print Assumptions C02_history_verifier_ignores_digest_beyond_version.
