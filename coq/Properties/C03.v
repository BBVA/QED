(* C03 - Consistency proofs verify for every version pair and expose any fork.
   Only statements here; every proof is `exact` a lemma of History/HistProofs.v or, for the entry-length check,
   History/HistChecked.v. *)
From QV Require Import Base.Util Base.HashSig History.HistModel History.HistSpec History.HistProofs History.HistChecked.

Section C03.
  Variables D E V : Type.
  Variable H : hin D E V -> D.
  Notation root := (root D E V H).

  (* (1) for every log A, every store holding the frozen nodes up to version vs, every pair s <= e <= vs:
         the proof the server builds is accepted against the history digests of versions s and e *)
  Theorem C03_incremental_complete (A : N -> E) (st : cache D) (vs : N) :
    StoreOK D E V H A st vs ->
    forall s e, s <= e -> e <= vs ->
    exists path, prove_consistency D E V H st s e = Some path /\
                 incremental_roots D E V H (path_get path) s e = (Some (root A s), Some (root A e)).
  Proof. exact (incremental_complete D E V H A st vs). Qed.

  Hypothesis H_inj : forall a b, H a = H b -> a = b.

  (* (2) for EVERY audit path c and claimed versions (s, e): acceptance against the authentic digest of log A
         at version i' and of log B at version j' implies that A and B agree on events 0..s (a fork at or
         before the start version is exposed) and that the claimed versions are the authentic ones
         (except for the degenerate proof e = 0 that reads both digests from one path entry, where the two
         digests must be equal and the logs agree on the whole prefix). *)
  Theorem C03_incremental_sound (A B : N -> E) (c : cache D) s e i' j' :
    s <= e ->
    incremental_roots D E V H c s e = (Some (root A i'), Some (root B j')) ->
    (forall k, k <= s -> A k = B k) /\
    (0 < e -> s = i' /\ e = j') /\
    (e = 0 -> i' = j' /\ forall k, k <= i' -> A k = B k).
  Proof. exact (incremental_sound D E V H H_inj A B c s e i' j'). Qed.

  (* (3) digests are injective in (version, log prefix): the digest of another version, or of a log that
         diverged at or before that version, IS another value ... *)
  Theorem C03_digest_determines_log (A B : N -> E) v v' :
    root A v = root B v' -> v = v' /\ forall k, k <= v -> A k = B k.
  Proof. exact (root_inj D E V H H_inj A B v v'). Qed.

  (* ... and the verifier is a function of the proof: a genuine proof is accepted for exactly one pair of
     digests, so replacing either digest by any other value is rejected *)
  Theorem C03_reject_replaced_digest (A : N -> E) (st : cache D) vs s e path d1 d2 :
    StoreOK D E V H A st vs -> s <= e -> e <= vs ->
    prove_consistency D E V H st s e = Some path ->
    incremental_roots D E V H (path_get path) s e = (Some d1, Some d2) ->
    d1 = root A s /\ d2 = root A e.
  Proof. exact (incremental_genuine_roots D E V H A st vs s e path d1 d2). Qed.

  (* (4) altering any audit-path entry of a genuine proof is rejected *)
  Theorem C03_reject_altered_entry (A : N -> E) (st : cache D) vs s e path :
    StoreOK D E V H A st vs -> s <= e -> e <= vs ->
    prove_consistency D E V H st s e = Some path ->
    forall k d (c' : cache D), In (k, d) path -> c' k <> Some d ->
    incremental_roots D E V H c' s e <> (Some (root A s), Some (root A e)).
  Proof. exact (incremental_reject_altered_entry D E V H H_inj A st vs s e path). Qed.

  (* (4') the verifier as it is since fix 10a81c4: an audit-path entry that is not a digest of the hasher's length
     (okD) is treated as missing.  Whatever path c'' the server sends: if what the checked lookup finds for an entry
     of the genuine proof is not that entry - it was altered, withheld, or has the wrong length - the proof is
     rejected.  (An instance of (4): that theorem quantifies over every audit path.) *)
  Variable okD : D -> bool.
  Theorem C03_reject_altered_entry_length_checked (A : N -> E) (st : cache D) vs s e path :
    StoreOK D E V H A st vs -> s <= e -> e <= vs ->
    prove_consistency D E V H st s e = Some path ->
    forall k d (c'' : cache D), In (k, d) path -> checked okD c'' k <> Some d ->
    incremental_roots D E V H (checked okD c'') s e <> (Some (root A s), Some (root A e)).
  Proof. exact (fun Hst Hse He Hp k d c'' => incremental_reject_altered_entry D E V H H_inj A st vs s e path Hst Hse He Hp k d (checked okD c'')). Qed.

  (* in particular an entry of the wrong length is rejected whatever its bytes are *)
  Theorem C03_wrong_length_entry_is_missing (c'' : cache D) k d' :
    c'' k = Some d' -> okD d' = false -> checked okD c'' k = None.
  Proof. exact (checked_bad_is_missing D okD c'' k d'). Qed.

  (* the check at lookup time is the same as dropping the offending entries from the decoded path once (what the
     executable model used by the correspondence runs does), for paths without duplicate keys - Go maps *)
  Theorem C03_length_check_is_a_path_filter (p : list (pos * D)) : NoDup (map fst p) ->
    forall k, checked okD (path_get p) k = path_get (wf_path okD p) k.
  Proof. exact (checked_is_wf_path D okD p). Qed.

  (* what the check buys: run on ANY audit path, the checked verifier only ever hashes children that satisfy okD - given
     that the hash function's own outputs do (SHA-256: Properties/C03_pinned_refuted.v, C03_sha_verifier_hashes_32_byte_children).
     interp_tr is the verifier's interpreter with the list of hash inputs it forms. *)
  Theorem C03_traced_interpreter_is_the_interpreter (c : cache D) (o : op E) :
    option_map fst (interp_tr D E V H c o) = interp D E V H c o.
  Proof. exact (interp_tr_fst D E V H c o). Qed.
  Theorem C03_checked_verifier_hashes_wellformed_children (c : cache D) (o : op E) r tr :
    (forall x, okD (H x) = true) ->
    interp_tr D E V H (checked okD c) o = Some (r, tr) ->
    okD r = true /\ Forall (fun x => wf_children D E V okD x = true) tr.
  Proof. exact (fun Hok => checked_inputs_wf D E V H okD Hok c o r tr). Qed.
End C03.

(* the reason for the check: bytes moved between two neighbouring entries hash alike, under every hash function.
   The concrete accepted forgery against the pinned verifier is Properties/C03_pinned_refuted.v. *)
Theorem C03_moved_bytes_hash_alike (B : Type) (byte : N -> B) (Hb : list B -> list B) (a b : list B) (x : B) i h :
  Hb (Layout.encG B byte (HFull (a ++ [x]) b i h)) = Hb (Layout.encG B byte (HFull a (x :: b) i h)).
Proof. exact (f_equal Hb (enc_shift B byte a b x i h)). Qed.

(* Non-vacuity: the premises are satisfiable (free term algebra as digests, events = their index). *)
Definition Dt := term N unit.
Definition idlog : N -> N := fun k => k.
Definition st_t : cache Dt := fun p => Some (fz Dt N unit Hterm idlog (fst p) (snd p)).
Example C03_premises_hold :
  (forall a b : hin Dt N unit, Hterm a = Hterm b -> a = b) /\ StoreOK Dt N unit Hterm idlog st_t 9 /\
  (exists path, prove_consistency Dt N unit Hterm st_t 2 5 = Some path /\ length path = 5%nat /\
     incremental_roots Dt N unit Hterm (path_get path) 2 5 =
       (Some (root Dt N unit Hterm idlog 2), Some (root Dt N unit Hterm idlog 5))).
Proof.
  split; [exact Hterm_inj|]. split; [intros i h _ _; reflexivity|].
  eexists. split; [vm_compute; reflexivity|]. split; vm_compute; reflexivity.
Qed.

Print Assumptions C03_incremental_complete.
Print Assumptions C03_incremental_sound.
Print Assumptions C03_digest_determines_log.
Print Assumptions C03_reject_replaced_digest.
Print Assumptions C03_reject_altered_entry.
Print Assumptions C03_reject_altered_entry_length_checked.
Print Assumptions C03_wrong_length_entry_is_missing.
Print Assumptions C03_length_check_is_a_path_filter.
Print Assumptions C03_moved_bytes_hash_alike.
Print Assumptions C03_traced_interpreter_is_the_interpreter.
Print Assumptions C03_checked_verifier_hashes_wellformed_children.
