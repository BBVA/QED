(* C04 - Snapshot digests are a canonical function of the event sequence alone.
   Statements only; proofs are `exact` lemmas of History/HistProofs.v, Balloon/BalloonProofs.v and, for the batch-level
   insertion, Hyper/HyperRefineSpec.v (which rests on Hyper/HyperRefine.v). *)
From QV Require Import Base.Util Base.HashSig History.HistModel History.HistSpec History.HistProofs
  Hyper.HyperModel Hyper.HyperBatch Hyper.HyperRefine Hyper.HyperRefineSpec Balloon.Balloon Balloon.BalloonProofs Properties.Instance.

Section C04.
  Variables D E V : Type.
  Variable H : hin D E V -> D.
  Variable nbits limit : nat.
  Variable kbits : E -> key.
  Variable vval : N -> V.
  Variable e0 : E.
  Hypothesis kbits_len : forall e, length (kbits e) = nbits.
  Notation ds := (dlist D E V H nbits).

  (* (1) In every reachable state (any earlier calls), a call inserting `new` returns, for its k-th event,
     the snapshot whose history digest is the root of the published history tree (HistSpec.root, the
     independent 12-line reference) over the log at version |evs|+k, whose hyper digest is the root of the
     published sparse tree (ytree_of) over the resulting digest->version map, whose version is |evs|+k and
     whose event digest is that event: dense versions, canonical digests. *)
  Theorem C04_snapshots_canonical st evs new snaps st' :
    reach D E V H nbits limit kbits vval st evs ->
    add_bulk D E V H nbits limit ds kbits vval st new = Some (snaps, st') ->
    snaps = map (fun k => {| s_event := nth k new e0;
                             s_hist := root D E V H (logf E e0 (evs ++ new)) (N.of_nat (length evs + k));
                             s_hyper := yroot D E V H ds (ytree_of D E V H limit nbits ds (b_hmap D V st'));
                             s_version := N.of_nat (length evs + k) |}) (seq 0 (length new)) /\
    b_hmap D V st' = map_add_bulk V (b_hmap D V st)
                       (combine (map kbits new) (map vval (versions_from (b_version D V st) (length new)))) /\
    b_version D V st' = N.of_nat (length (evs ++ new)).
  Proof. exact (snapshots_canonical D E V H nbits limit kbits vval e0 kbits_len st evs new snaps st'). Qed.

  (* (2) a version's history digest depends on the first v+1 events only: it never changes once issued *)
  Theorem C04_history_digest_stable (A B : N -> E) v :
    (forall k, k <= v -> A k = B k) -> root D E V H A v = root D E V H B v.
  Proof. exact (root_prefix D E V H A B v). Qed.

  (* (3) for distinct events the hyper map - hence the hyper digest - does not depend on how the events were
     grouped into calls: it is literally the list [(digest_i, i)] *)
  Theorem C04_grouping_independent st evs :
    reach D E V H nbits limit kbits vval st evs -> NoDup (map kbits evs) ->
    b_hmap D V st = map (fun i => (kbits (nth i evs e0), vval (N.of_nat i))) (seq 0 (length evs)).
  Proof. exact (hmap_of_distinct_events D E V H nbits limit kbits vval e0 kbits_len st evs). Qed.

  (* (4) the insertion code (pruneToInsert + insert visitor + write cache + store) computes that root: for
     every log, every version and every bulk size, on any store/cache holding the nodes completed so far *)
  Theorem C04_insert_computes_root (A : N -> E) (base : cache D) n v puts muts :
    GetOK D E V H A (ins_get base puts) v ->
    exists newp,
      bulk_go D E V H base (map A (map (fun k => v + N.of_nat k) (seq 0 n))) v (puts, muts)
        = Some (map (fun k => root D E V H A (v + N.of_nat k)) (seq 0 n), (newp ++ puts, newp ++ muts)) /\
      (forall p d, In (p, d) newp -> d = fz D E V H A (fst p) (snd p)) /\
      GetOK D E V H A (ins_get base (newp ++ puts)) (v + N.of_nat n).
  Proof. exact (bulk_correct D E V H A base n v puts muts). Qed.

  (* (5) a call never fails in a reachable state *)
  Theorem C04_add_total st evs new :
    reach D E V H nbits limit kbits vval st evs ->
    exists snaps st', add_bulk D E V H nbits limit ds kbits vval st new = Some (snaps, st').
  Proof. exact (add_total D E V H nbits limit kbits vval e0 kbits_len st evs new). Qed.
End C04.

(* (6) The hyper tree AS THE GO CODE STORES IT (Hyper/HyperBatch.v: 31-slot batches, cache levels, HyperTable, shortcut
   leaves and their push-down - the mirror of balloon/hyper/insert*.go that the correspondence run compares table by
   table) computes that published root: from the empty tables, for every sequence of Add/AddBulk calls with
   full-length keys (repetitions inside a call and re-insertion of existing keys included), every call succeeds and
   returns the root of the sparse tree over the map built so far. *)
Section C04b.
  Variables D E V : Type.
  Variable H : hin D E V -> D.
  Variable limit nbits : nat.
  Hypothesis limit4 : (limit mod 4 = 0)%nat.
  Hypothesis nbits4 : (nbits mod 4 = 0)%nat.
  Hypothesis limit_pos : (0 < limit)%nat.
  Hypothesis limit_lt : (limit < nbits)%nat.
  Notation ds := (dlist D E V H nbits).

  Theorem C04_hyper_batches_compute_the_published_root calls :
    Forall (fun kvs => kvs <> [] /\ Forall (fun kv => length (fst kv) = nbits) kvs) calls ->
    exists st', hb_run D E V H limit nbits (hinit D V) calls = Some (fst (spec_run D E V H limit nbits [] calls), st') /\
                Represents D E V H limit nbits st' (snd (spec_run D E V H limit nbits [] calls)).
  Proof.
    exact (fun Hc => hb_run_spec D E V H limit nbits limit4 nbits4 limit_pos limit_lt calls (hinit D V) []
                       (hinit_Represents D E V H limit nbits) Hc).
  Qed.

  (* one call, from any tables that represent a map *)
  Theorem C04_hyper_insert_refines st m kvs :
    Represents D E V H limit nbits st m -> kvs <> [] -> Forall (fun kv => length (fst kv) = nbits) kvs ->
    exists d st', hb_insert D E V H limit nbits ds st kvs = Some (d, st') /\
      d = yroot D E V H ds (ytree_of D E V H limit nbits ds (map_add_bulk V m kvs)) /\
      Represents D E V H limit nbits st' (map_add_bulk V m kvs).
  Proof. exact (hb_insert_spec D E V H limit nbits limit4 nbits4 limit_pos limit_lt st m kvs). Qed.
End C04b.

Example C04_premises_hold :
  reach D4 E4 N H4 4 2 kbits4 vid st2 evs2 /\ NoDup (map kbits4 evs2) /\ (forall e, length (kbits4 e) = 4%nat).
Proof.
  split; [exact reach_st2|]. split; [|exact kbits4_len].
  repeat constructor; vm_compute; intuition discriminate.
Qed.

(* the batch-level theorem at an instance: 8-bit keys, cache limit 4, two calls (a shortcut leaf pushed down by a
   key sharing six bits, and a key written twice in one call) *)
Definition k8 (n : N) : key := map (fun i => N.testbit n (N.of_nat i)) [7; 6; 5; 4; 3; 2; 1; 0]%nat.
Example C04b_premises_hold :
  (4 mod 4 = 0 /\ 8 mod 4 = 0 /\ 0 < 4 /\ 4 < 8)%nat /\
  Forall (fun kvs : list (key * N) => kvs <> [] /\ Forall (fun kv => length (fst kv) = 8%nat) kvs)
         [[(k8 200, 0)]; [(k8 201, 1); (k8 17, 2); (k8 17, 3)]] /\
  match hb_run D4 E4 N H4 4 8 (hinit D4 N) [[(k8 200, 0)]; [(k8 201, 1); (k8 17, 2); (k8 17, 3)]] with
  | Some (dsl, _) => dsl = fst (spec_run D4 E4 N H4 4 8 [] [[(k8 200, 0)]; [(k8 201, 1); (k8 17, 2); (k8 17, 3)]])
  | None => False
  end.
Proof.
  split; [repeat split; try reflexivity; lia|]. split.
  - repeat constructor; try discriminate.
  - vm_compute. reflexivity.
Qed.

Print Assumptions C04_snapshots_canonical.
Print Assumptions C04_history_digest_stable.
Print Assumptions C04_grouping_independent.
Print Assumptions C04_insert_computes_root.
Print Assumptions C04_add_total.
Print Assumptions C04_hyper_batches_compute_the_published_root.
Print Assumptions C04_hyper_insert_refines.
