(* C05 - Versions are assigned densely, in order, exactly once.
   Statements only; proofs are `exact` lemmas of Fsm/FsmProofs.v and Balloon/BalloonProofs.v.
   Two layers: (a) the replicated state machine hands every committed entry to the balloon exactly once over any
   life of a node (stops, kills, replays); (b) the balloon numbers the events of a call consecutively from the
   number of events it holds and returns each event's own digest in its snapshot. *)
From QV Require Import Base.Util Base.HashSig History.HistModel History.HistSpec Hyper.HyperModel
  Balloon.Balloon Balloon.BalloonProofs Fsm.Fsm Fsm.FsmProofs Properties.Instance.

Section C05.
  Variable Ev : Type.

  (* (a) A life = any number of incarnations; in each, raft re-delivers some entries the node already applied
     (`fst`, constrained by olds_ok) and then new ones (`snd`).  Whatever the split, the versions issued are
     |done|, |done|+1, ..., one per accepted event, in log order, none skipped and none twice, and the node ends
     up holding exactly the accepted events. *)
  Theorem C05_versions_dense_over_life incs done rest :
    wf_log Ev 0 (done ++ concat (map snd incs) ++ rest) ->
    N.of_nat (length (events_of Ev (done ++ concat (map snd incs)))) < W64 ->
    olds_ok Ev done incs ->
    issued (concat (snd (life Ev (state_of Ev done) (map (fun of => fst of ++ snd of) incs)))) =
      nseq (N.of_nat (length (events_of Ev done))) (length (events_of Ev (concat (map snd incs)))) /\
    n_events Ev (fst (life Ev (state_of Ev done) (map (fun of => fst of ++ snd of) incs))) =
      events_of Ev done ++ events_of Ev (concat (map snd incs)).
  Proof. exact (versions_dense Ev incs done rest). Qed.

  (* an entry that was applied before is never applied again *)
  Theorem C05_never_twice done j d :
    wf_log Ev 0 done -> In (j, d) done -> apply Ev (state_of Ev done) j d = (state_of Ev done, AlreadyApplied).
  Proof. exact (apply_old Ev done j d). Qed.
End C05.

Section C05b.
  Variables D E V : Type.
  Variable H : hin D E V -> D.
  Variable nbits limit : nat.
  Variable kbits : E -> key.
  Variable vval : N -> V.
  Variable vnum : V -> N.
  Variable D_eqb : D -> D -> bool.
  Variable E_eqb : E -> E -> bool.
  Variable e0 : E.
  Hypothesis kbits_len : forall e, length (kbits e) = nbits.
  Hypothesis D_eqb_eq : forall a b, D_eqb a b = true <-> a = b.
  Hypothesis limit_lt : (limit < nbits)%nat.
  Hypothesis nbits_small : N.of_nat nbits < 65536.
  Hypothesis kbits_inj : forall a b, kbits a = kbits b -> a = b.
  Hypothesis vnum_vval : forall v, v < W64 -> vnum (vval v) = v.
  Hypothesis E_eqb_eq : forall a b, E_eqb a b = true <-> a = b.
  Notation ds := (dlist D E V H nbits).

  (* (b) the k-th event of a call made when the log holds |evs| events receives version |evs|+k and its snapshot
     carries that event; the version counter ends at the number of accepted events *)
  Theorem C05_bulk_consecutive st evs new snaps st' :
    reach D E V H nbits limit kbits vval st evs ->
    add_bulk D E V H nbits limit ds kbits vval st new = Some (snaps, st') ->
    map (fun s => (s_event D E s, s_version D E s)) snaps =
      map (fun k => (nth k new e0, N.of_nat (length evs + k))) (seq 0 (length new)) /\
    b_version D V st' = N.of_nat (length (evs ++ new)).
  Proof. exact (bulk_consecutive D E V H nbits limit kbits vval e0 kbits_len st evs new snaps st'). Qed.

  (* the current version reported by proofs is the number of accepted events minus one *)
  Theorem C05_current_version st evs d w q :
    reach D E V H nbits limit kbits vval st evs -> N.of_nat (length evs) < W64 ->
    map_get V (b_hmap D V st) (kbits d) = Some w -> vnum w <= q -> q < b_version D V st ->
    exists a, query_membership_consistency D E V H nbits ds kbits vnum st d q = QOk D E V a /\
              a_current D E V a = N.of_nat (length evs) - 1.
  Proof.
    exact (current_version_reported D E V H nbits limit kbits vval vnum D_eqb E_eqb e0 kbits_len D_eqb_eq
             limit_lt nbits_small kbits_inj vnum_vval E_eqb_eq st evs d w q).
  Qed.
End C05b.

Example C05_premises_hold :
  wf_log N 0 ([(2, [5; 6])] ++ concat (map snd [([(2, [5; 6])], [(3, [7])]); ([(2, [5; 6]); (3, [7])], [(5, [8; 9])])]) ++ []) /\
  olds_ok N [(2, [5; 6])] [([(2, [5; 6])], [(3, [7])]); ([(2, [5; 6]); (3, [7])], [(5, [8; 9])])] /\
  issued (concat (snd (life N (state_of N [(2, [5; 6])]) [[(2, [5; 6]); (3, [7])]; [(2, [5; 6]); (3, [7]); (5, [8; 9])]]))) = [2; 3; 4].
Proof.
  (* on N, i < j evaluates to Lt = Lt (split closes it), i <= j to Lt <> Gt (discriminate) *)
  split; [vm_compute; repeat split; discriminate|]. split; [|vm_compute; reflexivity].
  repeat split; intros x Hx; exact Hx.
Qed.

Print Assumptions C05_versions_dense_over_life.
Print Assumptions C05_never_twice.
Print Assumptions C05_bulk_consecutive.
Print Assumptions C05_current_version.
