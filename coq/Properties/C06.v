(* C06 - Replicas agree: any replica's proofs verify against the leader's snapshots.
   Statements only; proofs are `exact` lemmas of Fsm/FsmProofs.v.
   A replica's durable state is a function of the committed prefix it has applied (state_of); its proofs and
   digests are functions of that state (C01, C03, C04 - the balloon theorems are about `reach st evs` for the
   event list alone).  So agreement reduces to: any two lives over the same committed entries - however they are
   cut into incarnations, whatever already-applied entries raft re-delivers at each start - end in the same
   state, and that state is state_of (the prefix). *)
From QV Require Import Base.Util Fsm.Fsm Fsm.FsmProofs.

Section C06.
  Variable Ev : Type.

  Theorem C06_replicas_agree done incs1 incs2 rest1 rest2 :
    wf_log Ev 0 (done ++ concat (map snd incs1) ++ rest1) -> wf_log Ev 0 (done ++ concat (map snd incs2) ++ rest2) ->
    N.of_nat (length (events_of Ev (done ++ concat (map snd incs1)))) < W64 ->
    olds_ok Ev done incs1 -> olds_ok Ev done incs2 ->
    concat (map snd incs1) = concat (map snd incs2) ->
    fst (life Ev (state_of Ev done) (map (fun of => fst of ++ snd of) incs1)) =
    fst (life Ev (state_of Ev done) (map (fun of => fst of ++ snd of) incs2)).
  Proof. exact (replicas_agree Ev done incs1 incs2 rest1 rest2). Qed.

  (* and that common state is the one determined by the applied prefix alone *)
  Theorem C06_state_is_prefix incs done rest :
    wf_log Ev 0 (done ++ concat (map snd incs) ++ rest) ->
    N.of_nat (length (events_of Ev (done ++ concat (map snd incs)))) < W64 ->
    olds_ok Ev done incs ->
    life Ev (state_of Ev done) (map (fun of => fst of ++ snd of) incs) =
      (state_of Ev (fst (life_spec Ev done incs)), snd (life_spec Ev done incs)) /\
    fst (life_spec Ev done incs) = done ++ concat (map snd incs).
  Proof. exact (life_correct Ev incs done rest). Qed.
End C06.

Example C06_premises_hold :
  let a := [([] : rlog N, [(1, [5]); (2, [6; 7])]); ([(2, [6; 7])], [(4, [8])])] in
  let b := [([] : rlog N, [(1, [5])]); ([(1, [5])], [(2, [6; 7]); (4, [8])])] in
  wf_log N 0 ([] ++ concat (map snd a) ++ []) /\ olds_ok N [] a /\ olds_ok N [] b /\
  concat (map snd a) = concat (map snd b) /\
  fst (life N (state_of N []) (map (fun of => fst of ++ snd of) a)) = state_of N [(1, [5]); (2, [6; 7]); (4, [8])].
Proof.
  (* on N, i < j evaluates to Lt = Lt (split closes it), i <= j to Lt <> Gt (discriminate) *)
  vm_compute. repeat split; try discriminate; tauto.
Qed.

Print Assumptions C06_replicas_agree.
Print Assumptions C06_state_is_prefix.
