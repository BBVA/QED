(* C07 - Any crash recovers to a prefix of the committed log, each entry applied once.
   Statements only; proofs are `exact` lemmas of Fsm/FsmProofs.v.
   The store write of an apply is one atomic batch (tree mutations + fsmState): a crash leaves the node at
   state_of (some prefix `done` of the committed log) - before the write the entry is not in `done`, after it
   it is.  On restart raft re-delivers entries applied before (`old`: raft sends a suffix of them; the theorems ask only that each
   was applied) followed by the rest (`fresh`). *)
From QV Require Import Base.Util Fsm.Fsm Fsm.FsmProofs.

Section C07.
  Variable Ev : Type.

  (* one recovery: re-delivered entries are recognised (AlreadyApplied, state untouched), the remaining ones
     are applied once each with the versions that continue the prefix, and the node ends in the state of a
     node that applied done ++ fresh without ever crashing *)
  Theorem C07_recovery done old fresh rest :
    wf_log Ev 0 (done ++ fresh ++ rest) -> N.of_nat (length (events_of Ev (done ++ fresh))) < W64 ->
    (forall x, In x old -> In x done) ->
    deliver Ev (state_of Ev done) (old ++ fresh) =
      (state_of Ev (done ++ fresh),
       map (fun _ => AlreadyApplied) old ++ applied_outs Ev (N.of_nat (length (events_of Ev done))) fresh).
  Proof. exact (incarnation_correct Ev done old fresh rest). Qed.

  (* any number of crashes at any points *)
  Theorem C07_any_crash_sequence incs done rest :
    wf_log Ev 0 (done ++ concat (map snd incs) ++ rest) ->
    N.of_nat (length (events_of Ev (done ++ concat (map snd incs)))) < W64 ->
    olds_ok Ev done incs ->
    life Ev (state_of Ev done) (map (fun of => fst of ++ snd of) incs) =
      (state_of Ev (fst (life_spec Ev done incs)), snd (life_spec Ev done incs)) /\
    fst (life_spec Ev done incs) = done ++ concat (map snd incs).
  Proof. exact (life_correct Ev incs done rest). Qed.

  (* the state after applying an entry on a prefix is the prefix extended by it: "after the write" *)
  Theorem C07_apply_extends_prefix done i c todo :
    wf_log Ev 0 (done ++ (i, c) :: todo) -> N.of_nat (length (events_of Ev (done ++ [(i, c)]))) < W64 ->
    apply Ev (state_of Ev done) i c =
      (state_of Ev (done ++ [(i, c)]), Applied (N.of_nat (length (events_of Ev done))) (length c)).
  Proof. exact (apply_fresh Ev done i c todo). Qed.
End C07.

Example C07_premises_hold :
  wf_log N 0 ([(1, [5]); (2, [6; 7])] ++ [(4, [8])] ++ []) /\
  (forall x, In x [(2, [6; 7])] -> In x [(1, [5]); (2, [6; 7])]) /\
  deliver N (state_of N [(1, [5]); (2, [6; 7])]) ([(2, [6; 7])] ++ [(4, [8])]) =
    (state_of N [(1, [5]); (2, [6; 7]); (4, [8])], [AlreadyApplied; Applied 3 1]).
Proof. (* on N, i < j evaluates to Lt = Lt (split closes it), i <= j to Lt <> Gt (discriminate) *)
  vm_compute. repeat split; try discriminate; tauto.
Qed.

Print Assumptions C07_recovery.
Print Assumptions C07_any_crash_sequence.
Print Assumptions C07_apply_extends_prefix.
