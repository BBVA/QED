(* C09 - A follower restored by state transfer converges to the leader's state.
   Statements only; proofs are `exact` lemmas of Fsm/FsmProofs.v.
   The transfer streams the write-ahead-log batches after the follower's last applied version through the
   validateF filter (`fetch`); the follower writes them as they are (`load`) and rebuilds its volatile state. *)
From QV Require Import Base.Util Fsm.Fsm Fsm.FsmProofs.

Section C09.
  Variable Ev : Type.

  (* a follower at any prefix `done` (empty for a new node), the leader streaming the batches of everything
     after it: every batch is taken and the follower ends in exactly the state of a replica that applied
     every entry itself - so by C06 everything it serves afterwards is what such a replica serves *)
  Theorem C09_transfer_complete fresh done rest :
    wf_log Ev 0 (done ++ fresh ++ rest) -> N.of_nat (length (events_of Ev (done ++ fresh))) < W64 ->
    fetch Ev (n_version Ev (state_of Ev done)) (wal Ev done fresh) = Some (wal Ev done fresh) /\
    load Ev (state_of Ev done) (wal Ev done fresh) = state_of Ev (done ++ fresh).
  Proof. exact (transfer_complete Ev fresh done rest). Qed.

  (* a stream that would leave a gap (the leader no longer holds the batches of `missing`) is refused -
     PARTIAL: under the premise that the follower is not an empty node missing exactly one event *)
  Theorem C09_gap_refused_partial done missing i c rest :
    wf_log Ev 0 (done ++ missing ++ (i, c) :: rest) -> missing <> [] ->
    (done <> [] \/ (2 <= length (events_of Ev missing))%nat) ->
    fetch Ev (n_version Ev (state_of Ev done)) (wal Ev (done ++ missing) ((i, c) :: rest)) = None.
  Proof. exact (transfer_gap_refused Ev done missing i c rest). Qed.

  (* the full statement (no premise on done/missing) is false of the model - and of the code: known finding
     C09:gap-served:new-node-one-event-missing, replayed by the `transfer` harness command on every run *)
  Theorem C09_gap_refused_refuted (e : Ev) :
    exists missing i c rest,
      wf_log Ev 0 ([] ++ missing ++ (i, c) :: rest) /\ missing <> [] /\
      fetch Ev (n_version Ev (state_of Ev [])) (wal Ev ([] ++ missing) ((i, c) :: rest)) <> None.
  Proof. exact (transfer_gap_new_node_one_event_refuted Ev e). Qed.
End C09.

Example C09_premises_hold :
  wf_log N 0 ([(1, [5])] ++ [(2, [6; 7]); (4, [8])] ++ []) /\
  load N (state_of N [(1, [5])]) (wal N [(1, [5])] [(2, [6; 7]); (4, [8])]) = state_of N [(1, [5]); (2, [6; 7]); (4, [8])] /\
  fetch N (n_version N (state_of N [(1, [5])])) (wal N ([(1, [5])] ++ [(2, [6; 7])]) [(4, [8])]) = None.
Proof. (* on N, i < j evaluates to Lt = Lt (split closes it), i <= j to Lt <> Gt (discriminate) *)
  vm_compute. repeat split; discriminate.
Qed.

Print Assumptions C09_transfer_complete.
Print Assumptions C09_gap_refused_partial.
Print Assumptions C09_gap_refused_refuted.
