(* C10 - Queries concurrent with insertions are answered from a consistent state.
   Statements only; proofs are `exact` lemmas of Fsm/Window.v.
   PARTIAL: the theorem covers the logic of the lock discipline (RaftNode.applyMu) for every schedule of any
   number of apply and query goroutines; freedom from data races in the Go memory model is runtime behaviour
   no Gallina model exhibits (the thorough tier runs the window and cluster scenarios under -race). *)
From QV Require Import Base.Util Fsm.Window.

Section C10.
  Variable Ev : Type.

  (* every schedule the lock permits, from every state satisfying the invariant (in particular the initial
     one): every query sees store and in-memory structures at the same version *)
  Theorem C10_queries_see_consistent_state sched s s' obs :
    winv Ev s -> wrun Ev true s sched = Some (s', obs) ->
    winv Ev s' /\ Forall (fun ob => fst ob = snd ob) obs.
  Proof. exact (window_consistent Ev sched s s' obs). Qed.

  Theorem C10_initial_state_ok evs : winv Ev (winit Ev evs).
  Proof. exact (winv_init Ev evs). Qed.

  (* a query issued between "computed" and "persisted" waits *)
  Theorem C10_query_waits evs c : wrun Ev true (winit Ev evs) [WLock Ev; WCompute Ev c; RLock Ev] = None.
  Proof. exact (window_query_waits Ev evs c). Qed.

  (* the same code without the discipline (the pinned commit) lets a query see a mixed state *)
  Theorem C10_unlocked_refuted (e : Ev) :
    exists sched s' obs, wrun Ev false (winit Ev []) sched = Some (s', obs) /\ Exists (fun ob => fst ob <> snd ob) obs.
  Proof. exact (window_unlocked_refuted Ev e). Qed.
End C10.

Example C10_premises_hold :
  wrun N true (winit N [1; 2]) [RLock N; RRead N; WLock N] = None /\
  exists s, wrun N true (winit N [1; 2]) [RLock N; RRead N; RUnlock N; WLock N; WCompute N [3]; WPersist N; WUnlock N; RLock N; RRead N; RUnlock N]
    = Some (s, [(2, 2); (3, 3)]%nat).
Proof. split; [reflexivity|]. exists (winit N [1; 2; 3]). reflexivity. Qed.

Print Assumptions C10_queries_see_consistent_state.
Print Assumptions C10_initial_state_ok.
Print Assumptions C10_query_waits.
Print Assumptions C10_unlocked_refuted.
