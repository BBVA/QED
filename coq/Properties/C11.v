(* C11 - No client request can crash or wedge a server.
   Statements only; proofs are `exact` lemmas of Fsm/Api.v.
   PARTIAL: the theorem carries the part of the property that is logic - no request can cause a command to be
   replicated that replicas cannot apply, now or on replay.  That the process survives every request and
   answers with a well-formed HTTP response is behaviour of net/http, encoding/json and the handlers at run
   time: decided by the request stream of the `http` harness command against the real muxes. *)
From QV Require Import Base.Util Fsm.Fsm Fsm.FsmProofs Fsm.Api.

Section C11.
  Variable Ev : Type.

  Theorem C11_proposals_applicable r c done i :
    propose Ev r = Some c ->
    wf_log Ev 0 done -> last_index Ev done < i -> N.of_nat (length (events_of Ev (done ++ [(i, c)]))) < W64 ->
    apply Ev (state_of Ev done) i c =
      (state_of Ev (done ++ [(i, c)]), Applied (N.of_nat (length (events_of Ev done))) (length c)) /\
    apply Ev (state_of Ev (done ++ [(i, c)])) i c = (state_of Ev (done ++ [(i, c)]), AlreadyApplied).
  Proof. exact (proposals_applicable Ev r c done i). Qed.

  (* the pinned code proposed the empty bulk: that command kills every replica that applies it *)
  Theorem C11_empty_command_refuted : exists r c, propose_pinned Ev r = Some c /\
    forall n i, (i <=? n_index Ev n) && negb (n_index Ev n =? 0) = false -> snd (apply Ev n i c) = Panic.
  Proof. exact (empty_command_refuted Ev). Qed.
End C11.

Example C11_premises_hold :
  propose N (RBulk N [7; 8]) = Some [7; 8] /\ wf_log N 0 [(1, [5])] /\ last_index N [(1, [5])] < 3 /\
  propose N (RBulk N []) = None.
Proof. (* on N, i < j evaluates to Lt = Lt (split closes it), i <= j to Lt <> Gt (discriminate) *)
  vm_compute. repeat split; discriminate.
Qed.

Print Assumptions C11_proposals_applicable.
Print Assumptions C11_empty_command_refuted.
