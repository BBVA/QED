(* C14 - Each store back-end behaves as an atomic, ordered, per-table map.
   Statements only; proofs are `exact` lemmas of Store/BplusProofs.v and Store/BplusReader.v (the order on byte strings
   that the non-vacuity Example instantiates them with, `bleb`, has its four order properties proved here).
   The specification is the per-table view `table t p` (sorted list of the table's entries) with
   spec_get / spec_put / spec_range / spec_last; it is also what the RocksDB store is compared with. *)
From QV Require Import Base.Util Store.Bplus Store.BplusProofs Store.BplusReader Run.StoreRun.

Section C14.
  Variable K : Type.
  Variable Val : Type.
  Variable kleb : K -> K -> bool.
  Variable kmin : K.
  Hypothesis kleb_refl : forall a, kleb a a = true.
  Hypothesis kleb_trans : forall a b c, kleb a b = true -> kleb b c = true -> kleb a c = true.
  Hypothesis kleb_total : forall a b, kleb a b = true \/ kleb b a = true.
  Hypothesis kleb_antisym : forall a b, kleb a b = true -> kleb b a = true -> a = b.

  Notation sorted := (sorted K Val kleb).
  Notation table := (table K Val).

  (* the tree stays sorted under any batch of mutations (the invariant of every reachable store) *)
  Theorem C14_sorted_invariant muts t : sorted t -> sorted (mutate K Val kleb t muts).
  Proof. exact (mutate_sorted K Val kleb kleb_refl kleb_trans kleb_total kleb_antisym muts t). Qed.

  (* a batch is applied as a whole and every table receives exactly its own writes, in order *)
  Theorem C14_mutate_refines muts t p : sorted t ->
    table (mutate K Val kleb t muts) p = puts_of K Val kleb muts p (table t p).
  Proof. exact (mutate_refines K Val kleb kleb_refl kleb_trans kleb_total kleb_antisym muts t p). Qed.

  (* reads see the table's map only *)
  Theorem C14_get_refines t p k : get K Val kleb t p k = spec_get K Val kleb (table t p) k.
  Proof. exact (get_refines K Val kleb t p k). Qed.

  Theorem C14_range_refines t p a b : sorted t ->
    get_range K Val kleb t p a b = spec_range K Val kleb (table t p) a b.
  Proof. exact (get_range_refines K Val kleb kleb_trans t p a b). Qed.

  Theorem C14_last_refines t p : sorted t ->
    get_last K Val kleb kmin t p = spec_last K Val (table t p).
  Proof. exact (get_last_refines K Val kleb kmin kleb_trans t p). Qed.

  (* the GetAll reader (used by the cache rebuild, by backups and by state transfer): one Read(n) returns the next n
     entries of the table; Read until exhausted returns the table, each entry once, in key order, for any chunk size *)
  Hypothesis kmin_le : forall a, kleb kmin a = true.
  Theorem C14_read_refines t r n : sorted t -> reader_ok K kmin r ->
    fst (read K Val kleb t r n) = firstn n (pending K Val kleb t r) /\
    pending K Val kleb t (snd (read K Val kleb t r n)) = skipn n (pending K Val kleb t r) /\
    reader_ok K kmin (snd (read K Val kleb t r n)).
  Proof. exact (read_refines K Val kleb kmin kleb_refl kleb_trans kleb_antisym kmin_le t r n). Qed.

  Theorem C14_get_all_refines t p n fuel : sorted t -> (0 < n)%nat -> (length (table t p) < fuel)%nat ->
    drain K Val kleb t (new_reader K kmin p) n fuel = table t p.
  Proof. exact (get_all_refines K Val kleb kmin kleb_refl kleb_trans kleb_antisym kmin_le t p n fuel). Qed.
End C14.

(* Non-vacuity: byte strings under bytes.Compare satisfy the order hypotheses *)
Lemma bleb_refl a : bleb a a = true.
Proof. induction a as [|x a IH]; [reflexivity|]. cbn. rewrite N.eqb_refl, IH, orb_true_r. reflexivity. Qed.
Lemma bleb_cons x a y b : bleb (x :: a) (y :: b) = true <-> x < y \/ (x = y /\ bleb a b = true).
Proof. cbn [bleb]. rewrite orb_true_iff, andb_true_iff, N.ltb_lt, N.eqb_eq. reflexivity. Qed.
Lemma bleb_trans a : forall b c, bleb a b = true -> bleb b c = true -> bleb a c = true.
Proof.
  induction a as [|x a IH]; intros [|y b] [|z c] H1 H2; try reflexivity; try discriminate.
  apply bleb_cons in H1. apply bleb_cons in H2. apply bleb_cons.
  destruct H1 as [H1|[-> H1]], H2 as [H2|[-> H2]].
  - left. lia.
  - left. exact H1.
  - left. exact H2.
  - right. split; [reflexivity|exact (IH _ _ H1 H2)].
Qed.
Lemma bleb_total a : forall b, bleb a b = true \/ bleb b a = true.
Proof.
  induction a as [|x a IH]; intros b; [left; reflexivity|]. destruct b as [|y b]; [right; reflexivity|]. cbn.
  destruct (N.lt_trichotomy x y) as [H|[->|H]].
  - left. apply orb_true_iff. left. apply N.ltb_lt. exact H.
  - rewrite N.ltb_irrefl, N.eqb_refl. cbn. exact (IH b).
  - right. apply orb_true_iff. left. apply N.ltb_lt. exact H.
Qed.
Lemma bleb_antisym a : forall b, bleb a b = true -> bleb b a = true -> a = b.
Proof.
  induction a as [|x a IH]; intros [|y b] H1 H2; try reflexivity; try discriminate.
  apply bleb_cons in H1. apply bleb_cons in H2.
  destruct H1 as [H1|[-> H1]], H2 as [H2|[E H2]]; try lia. f_equal. exact (IH b H1 H2).
Qed.

Example C14_premises_hold :
  sorted bs bs bleb (mutate bs bs bleb [] [(2, [1; 255], [7]); (0, [], [8]); (2, [1], [9]); (3, [171], [1]); (2, [1; 255], [5])]) /\
  get_last bs bs bleb [] (mutate bs bs bleb [] [(2, [1; 255], [7]); (0, [], [8]); (2, [1], [9]); (3, [171], [1]); (2, [1; 255], [5])]) 2
    = Some ([1; 255], [5]).
Proof.
  split; [apply (C14_sorted_invariant bs bs bleb bleb_refl bleb_trans bleb_total bleb_antisym); exact I|reflexivity].
Qed.

Example C14_reader_premises_hold :
  (forall a, bleb [] a = true) /\
  drain bs bs bleb (mutate bs bs bleb [] [(2, [1; 255], [7]); (0, [], [8]); (2, [1], [9]); (3, [171], [1]); (2, [], [5])])
        (new_reader bs [] 2) 2 4 = [([], [5]); ([1], [9]); ([1; 255], [7])].
Proof. split; [intros a; reflexivity|reflexivity]. Qed.

Print Assumptions C14_sorted_invariant.
Print Assumptions C14_mutate_refines.
Print Assumptions C14_get_refines.
Print Assumptions C14_range_refines.
Print Assumptions C14_last_refines.
Print Assumptions C14_read_refines.
Print Assumptions C14_get_all_refines.
