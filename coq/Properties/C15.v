(* C15 - The replicated-log store returns exactly what consensus stored.
   Statements only; proofs are `exact` lemmas of Store/RaftLogProofs.v. *)
From QV Require Import Base.Util Store.RaftLog Store.RaftLogProofs.

(* a stored entry is returned with all its fields; other indexes are unaffected *)
Theorem C15_get_after_store m i e j : rl_get (rl_store m i e) j = if j =? i then Some e else rl_get m j.
Proof. exact (get_store m i e j). Qed.

(* DeleteRange removes exactly the inclusive range, for every pair of bounds incl. max = 2^64-1 and min > max;
   the Go code deletes [min,max) and then max, so that max+1 is never computed *)
Theorem C15_delete_range_exact m lo hi j :
  rl_get (rl_delete_range m lo hi) j = if (lo <=? j) && (j <=? hi) then None else rl_get m j.
Proof. exact (get_delete_range m lo hi j). Qed.

(* FirstIndex / LastIndex: zero when empty, otherwise the smallest / largest stored index *)
Theorem C15_first_index m :
  (m = [] -> rl_first m = 0) /\
  (m <> [] -> rl_get m (rl_first m) <> None /\ forall j, rl_get m j <> None -> rl_first m <= j).
Proof. exact (rl_first_spec m). Qed.
Theorem C15_last_index m :
  (m = [] -> rl_last m = 0) /\
  (m <> [] -> rl_get m (rl_last m) <> None /\ forall j, rl_get m j <> None -> j <= rl_last m).
Proof. exact (rl_last_spec m). Qed.

Example C15_premises_hold :
  let m := rl_delete_range (rl_store (rl_store (rl_store [] 5 (1, 0, [7])) 18446744073709551615 (2, 1, [])) 9 (1, 0, [1])) 6 18446744073709551615 in
  rl_get m 5 = Some (1, 0, [7]) /\ rl_get m 9 = None /\ rl_get m 18446744073709551615 = None /\ rl_first m = 5 /\ rl_last m = 5.
Proof. vm_compute. repeat split; reflexivity. Qed.

Print Assumptions C15_get_after_store.
Print Assumptions C15_delete_range_exact.
Print Assumptions C15_first_index.
Print Assumptions C15_last_index.
