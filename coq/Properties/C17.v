(* C17 - Every issued snapshot is emitted once, signed; the signature binds its content.
   Statements only; proofs are `exact` lemmas of Sender/BatcherProofs.v, Sender/Sign.v and Sender/Proposers.v.
   PARTIAL in two respects, both named in the evidence: (a) that each snapshot put on the channel is received
   by exactly one batcher is Go channel semantics (the schedule of the theorem assigns each arrival to one
   batcher); (b) the signature scheme is a section variable with the three idealised properties of ed25519
   below - the real golang.org/x/crypto/ed25519 is exercised (every single-bit modification), not proved. *)
From Coq Require Import String Permutation.
From QV Require Import Base.Util Sender.Batcher Sender.BatcherProofs Sender.Sign Sender.Proposers.

Section C17.
  Variable S : Type.           (* signed snapshots *)
  Variable B : nat.            (* BatchSize *)
  Hypothesis B_pos : (0 < B)%nat.

  (* For every number n of batchers, every schedule (interleaving of arrivals - each at one batcher - and timer
     ticks) of distinct snapshots, followed by the tick every batcher gets once nothing more arrives: the batches
     published are a permutation of what arrived (nothing lost), without repetition (nothing duplicated), each of
     1..BatchSize snapshots. *)
  Theorem C17_exactly_once_in_bounded_batches n sched st' out :
    ids_ok S n sched -> NoDup (garrivals S sched) ->
    grun S B (repeat [] n) (sched ++ all_tick S n) = (st', out) ->
    Permutation (concat out) (garrivals S sched) /\ NoDup (concat out) /\
    Forall (fun b => 1 <= length b <= B)%nat out.
  Proof. exact (sender_exactly_once S B B_pos n sched st' out). Qed.

  (* at every moment (no final ticks, snapshots not assumed distinct): published + still held = arrived *)
  Theorem C17_conservation_at_every_step sched st st' out :
    ids_ok S (length st) sched -> grun S B st sched = (st', out) ->
    Permutation (concat out ++ concat st') (concat st ++ garrivals S sched) /\ length st' = length st.
  Proof. exact (grun_conserve S B B_pos sched st st' out). Qed.

  Theorem C17_batch_size_bound sched st st' out :
    bufs_ok S B st -> grun S B st sched = (st', out) ->
    bufs_ok S B st' /\ Forall (fun b => 1 <= length b <= B)%nat out.
  Proof. exact (grun_bound S B B_pos sched st st' out). Qed.
End C17.

(* the signed message determines every field of the snapshot *)
Theorem C17_message_determines_snapshot a b : print_snapshot a = print_snapshot b -> a = b.
Proof. exact (print_snapshot_inj a b). Qed.

Section C17b.
  Variable Sig : Type.
  Variable sign : string -> Sig.
  Variable verify : string -> Sig -> bool.
  Hypothesis verify_sign : forall m, verify m (sign m) = true.
  Hypothesis verify_unique : forall m sg, verify m sg = true -> sg = sign m.
  Hypothesis sign_binds : forall m m', sign m = sign m' -> m = m'.

  Theorem C17_signed_snapshot_verifies s : check Sig verify (do_sign Sig sign s) = true.
  Proof. exact (signed_verifies Sig sign verify verify_sign s). Qed.

  (* change any field of the snapshot (keeping the signature) or any part of the signature (keeping the
     snapshot) and it no longer verifies *)
  Theorem C17_signature_binds s s' sg' :
    check Sig verify (s', sg') = true -> (s' = s \/ sg' = snd (do_sign Sig sign s)) -> (s', sg') = do_sign Sig sign s.
  Proof. exact (signature_binds Sig sign verify verify_unique sign_binds s s' sg'). Qed.
End C17b.

Definition sched5 : list (nat * bev N) := [(0%nat, Arrive N 5); (1%nat, Arrive N 6); (0%nat, Arrive N 7); (0%nat, Tick N); (0%nat, Arrive N 8)].

(* Non-vacuity: a schedule with two batchers; an idealised scheme exists (sign = identity, verify = equality) *)
Example C17_premises_hold :
  ids_ok N 2 sched5 /\
  NoDup (garrivals N sched5) /\
  snd (grun N 2 (repeat [] 2) (sched5 ++ all_tick N 2))
    = [[5; 7]; [8]; [6]] /\
  (forall m, String.eqb m m = true) /\ (forall m sg, String.eqb m sg = true -> sg = m).
Proof.
  split; [repeat constructor|]. split; [repeat constructor; cbn; intuition discriminate|]. split; [vm_compute; reflexivity|].
  split; [apply String.eqb_refl|]. intros m sg Hq. apply String.eqb_eq in Hq. congruence.
Qed.

(* The proposing side (RaftNode.AddBulk): any number of proposers push the snapshots they were given onto the one channel,
   resuming in any order after raft applied their entries.  Whatever the interleaving, the channel carries every issued
   snapshot exactly once (ps = what each proposer was given, l = what the channel receives). *)
Theorem C17_concurrent_proposers_hand_over_every_snapshot_once (A : Type) (ps : list (list A)) (l : list A) :
  interleave A ps l -> NoDup (concat ps) ->
  NoDup l /\ forall x, In x l <-> In x (concat ps).
Proof. exact (interleave_each_once A ps l). Qed.

Theorem C17_concurrent_proposers_conserve (A : Type) (ps : list (list A)) (l : list A) :
  interleave A ps l -> Permutation l (concat ps).
Proof. exact (interleave_perm A ps l). Qed.

(* with a "published" high-water mark in front of the channel (seeded change C17-10) the statement is false: the proposer
   of version 2 resumes first, the mark passes to 3, and of the channel's [2; 0; 1] only [2] goes out - both snapshots of
   the other proposer are lost *)
Theorem C17_high_water_mark_refuted :
  interleave N [[0; 1]; [2]]%N [2; 0; 1]%N /\ hwm_filter 0 [2; 0; 1]%N = [2]%N.
Proof. exact hwm_loses_a_snapshot. Qed.

Print Assumptions C17_exactly_once_in_bounded_batches.
Print Assumptions C17_conservation_at_every_step.
Print Assumptions C17_batch_size_bound.
Print Assumptions C17_message_determines_snapshot.
Print Assumptions C17_signed_snapshot_verifies.
Print Assumptions C17_signature_binds.
Print Assumptions C17_concurrent_proposers_hand_over_every_snapshot_once.
Print Assumptions C17_concurrent_proposers_conserve.
Print Assumptions C17_high_water_mark_refuted.
