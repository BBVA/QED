(* C18 - Gossip is bounded, processed once per agent and never self-addressed.
   Statements only; proofs are `exact` lemmas of Gossip/GossipProofs.v, Gossip/GossipView.v and Gossip/GossipTasks.v. *)
From Coq Require Import ZArith.
From QV Require Import Base.Util Gossip.Gossip Gossip.GossipProofs Gossip.GossipView Gossip.GossipTasks.

(* (1) every hop strictly lowers the TTL; a message whose TTL is exhausted (zero OR negative) is not sent on *)
Theorem C18_hop_lowers_ttl ttl t : send_ttl ttl = Some t -> (0 <= t < ttl)%Z.
Proof. exact (send_ttl_lower ttl t). Qed.
Theorem C18_exhausted_ttl_dies ttl : (ttl <= 0)%Z -> send_ttl ttl = None.
Proof. exact (send_ttl_dead ttl). Qed.

(* (2) hence dissemination terminates: along any chain of agents, however long, a message with initial TTL t
   (any integer) is forwarded at most max(0, t) times *)
Theorem C18_dissemination_bounded fuel ttl : (Z.of_nat (hops fuel ttl) <= Z.max 0 ttl)%Z.
Proof. exact (hops_bounded fuel ttl). Qed.

(* (3) an agent never routes a message to itself (nor to the peer named as source); every destination is a
   member of its view - for every topology and every outcome of the shuffle *)
Theorem C18_never_self_addressed t self src pick :
  (forall r c, c <> [] -> In (pick r c) c) ->
  forall d, In d (route t self src pick) -> d <> self /\ d <> src /\ exists r l, In (r, l) t /\ In d l.
Proof. exact (route_never_self t self src pick). Qed.

(* (4) tasks are created at most once per batch, whatever the number, order and origin of the deliveries, and
   exactly once for a batch not seen before (dedup cache idealised as unbounded) *)
Theorem C18_processed_at_most_once cache deliveries : NoDup (process cache deliveries).
Proof. exact (process_once cache deliveries). Qed.
Theorem C18_new_batch_processed cache deliveries d : In d deliveries -> ~ In d cache -> In d (process cache deliveries).
Proof. exact (process_all_new cache deliveries d). Qed.

(* (5) the view keeps one entry per member name in each role list under joins and leaves *)
Theorem C18_view_update t role name : TopoOK t -> TopoOK (topo_update t role name).
Proof. exact (topo_update_ok t role name). Qed.
Theorem C18_view_delete t role name : TopoOK t -> TopoOK (topo_delete t role name).
Proof. exact (topo_delete_ok t role name). Qed.

(* (6) ... and after ANY sequence of membership notifications (gossip/delegate.go applies them one after the other:
   join / update -> Topology.Update, leave -> Topology.Delete) the peers listed for a role are exactly those that joined
   and have not left since - [joined] adds on a join and removes on a leave - and none is listed twice *)
Theorem C18_view_is_the_set_of_joined_peers evs role name :
  NoDup (members (topo_run [] evs) role) /\
  (In name (members (topo_run [] evs) role) <-> joined evs role name = true).
Proof. exact (view_from_empty evs role name). Qed.
Theorem C18_view_consistent_from_any_view evs t P : TopoOK t -> agree t P ->
  TopoOK (topo_run t evs) /\ agree (topo_run t evs) (fold_left spec_step evs P).
Proof. exact (view_consistent evs t P). Qed.

Example C18_view_example :
  members (topo_run [] [MJoin 1 10; MJoin 1 11; MJoin 2 20; MLeave 1 10; MJoin 1 11; MLeave 3 5]) 1 = [11] /\
  joined [MJoin 1 10; MJoin 1 11; MJoin 2 20; MLeave 1 10; MJoin 1 11; MLeave 3 5] 1 11 = true /\
  joined [MJoin 1 10; MJoin 1 11; MJoin 2 20; MLeave 1 10; MJoin 1 11; MLeave 3 5] 1 10 = false.
Proof. repeat split; reflexivity. Qed.

Example C18_premises_hold :
  let t := topo_update (topo_update (topo_update [] 1 10) 2 20) 1 11 in
  TopoOK t /\ route t 10 10 (fun _ c => hd 0 c) = [11; 20] /\ hops 10 3 = 3%nat /\ hops 10 (-5) = 0%nat /\
  process [] [4; 4; 7; 4] = [4; 7].
Proof.
  cbn zeta. split; [apply C18_view_update, C18_view_update, C18_view_update; intros ? ? []|]. repeat split; reflexivity.
Qed.

(* several task factories and a task manager that may refuse tasks: whatever arrives and whatever is refused, each factory
   creates at most one task per batch (the batch is marked before the tasks are created) *)
Theorem C18_tasks_at_most_once_whatever_the_task_manager_refuses (nf : nat) (cache ds : list N) :
  NoDup (process_tm nf cache 0 ds).
Proof. exact (tasks_at_most_once nf cache ds). Qed.

(* marking the batch only after every task was accepted (seeded change C18-10) is refuted: two factories, the second one's
   task refused, the batch delivered twice - both tasks are created twice and the first factory's runs twice *)
Theorem C18_mark_after_accept_refuted :
  process_late 2 (fun _ k _ => Nat.eqb k 0) [] 0 [7; 7]%N = [(7%N, 0%nat); (7%N, 1%nat); (7%N, 0%nat); (7%N, 1%nat)] /\
  process_tm 2 [] 0 [7; 7]%N = [(7%N, 0%nat); (7%N, 1%nat)].
Proof. exact process_late_runs_a_task_twice. Qed.

Print Assumptions C18_dissemination_bounded.
Print Assumptions C18_never_self_addressed.
Print Assumptions C18_processed_at_most_once.
Print Assumptions C18_new_batch_processed.
Print Assumptions C18_view_update.
Print Assumptions C18_view_delete.
Print Assumptions C18_view_is_the_set_of_joined_peers.
Print Assumptions C18_view_consistent_from_any_view.
Print Assumptions C18_tasks_at_most_once_whatever_the_task_manager_refuses.
Print Assumptions C18_mark_after_accept_refuted.
