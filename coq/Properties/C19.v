(* C19 - Agents alert exactly when verification fails and publish each snapshot once.
   Statements only; proofs are `exact` lemmas of Agents/AgentsProofs.v and Agents/PubConcProofs.v.
   The auditor and monitor models are the decision logic of the task factories over the balloon model (server
   side: query_membership_consistency / query_consistency; client side: digest_verify / incremental_verify);
   the publisher model is the signature-keyed filter with a cache that never forgets (the real cache is a
   bounded freecache: see DESIGN.md / evidence for what that leaves out). *)
From QV Require Import Base.Util Base.HashSig History.HistModel History.HistSpec History.HistProofs Hyper.HyperModel
  Balloon.Balloon Balloon.BalloonProofs Agents.Agents Agents.AgentsProofs Agents.PubConc Agents.PubConcProofs Properties.Instance.

Section C19.
  Variables D E V : Type.
  Variable H : hin D E V -> D.
  Variable nbits limit : nat.
  Variable kbits : E -> key.
  Variable vval : N -> V.
  Variable vnum : V -> N.
  Variable D_eqb : D -> D -> bool.
  Variable E_eqb : E -> E -> bool.
  Variable e0 : E.
  Hypothesis kbits_len : forall e, length (kbits e) = nbits.
  Hypothesis D_eqb_eq : forall a b, D_eqb a b = true <-> a = b.
  Hypothesis limit_lt : (limit < nbits)%nat.
  Hypothesis nbits_small : N.of_nat nbits < 65536.
  Hypothesis kbits_inj : forall a b, kbits a = kbits b -> a = b.
  Hypothesis vnum_vval : forall v, v < W64 -> vnum (vval v) = v.
  Hypothesis E_eqb_eq : forall a b, E_eqb a b = true <-> a = b.
  Notation ds := (dlist D E V H nbits).

  (* (1) honest log of distinct events (any sequence of Add/AddBulk calls), honest store: the auditor raises no
         alert for any gossiped snapshot, at any later state of the log *)
  Theorem C19_auditor_quiet_on_honest_log st evs v g stored :
    reach D E V H nbits limit kbits vval st evs -> N.of_nat (length evs) < W64 -> NoDup (map kbits evs) ->
    v < b_version D V st -> genuine D E V H e0 evs v g ->
    stored (b_version D V st - 1) = Some (hyper_digest D E V H ds st) ->
    auditor D E V H nbits kbits vval D_eqb E_eqb
      (query_membership_consistency D E V H nbits ds kbits vnum st (s_event D E g) (s_version D E g)) stored g = Quiet.
  Proof.
    exact (auditor_quiet_on_honest_log D E V H nbits limit kbits vval vnum D_eqb E_eqb e0 kbits_len D_eqb_eq
             limit_lt nbits_small kbits_inj vnum_vval E_eqb_eq st evs v g stored).
  Qed.

  (* (2) the auditor alerts exactly when the proof fails to verify against the published snapshots *)
  Theorem C19_auditor_alerts_iff answer stored g :
    auditor D E V H nbits kbits vval D_eqb E_eqb answer stored g = Alerted <->
    exists a y, answer = QOk D E V a /\ stored (a_current D E V a) = Some y /\
                digest_verify D E V H nbits kbits vval D_eqb E_eqb a (s_event D E g) (s_hist D E g) y = Reject.
  Proof. exact (auditor_alerts_iff D E V H nbits kbits vval D_eqb E_eqb answer stored g). Qed.

  (* (3) honest log: the monitor raises no alert for any batch (first <= last, both issued); the log answers *)
  Theorem C19_monitor_quiet_on_honest_log st evs s e first last p :
    reach D E V H nbits limit kbits vval st evs -> s <= e -> e < b_version D V st ->
    genuine D E V H e0 evs s first -> genuine D E V H e0 evs e last ->
    query_consistency D E V H st s e = Some (Some p) ->
    monitor D E V H D_eqb (Some p) first last = Quiet.
  Proof. exact (monitor_quiet_on_honest_log D E V H nbits limit kbits vval D_eqb e0 kbits_len D_eqb_eq limit_lt nbits_small st evs s e first last p). Qed.

  Theorem C19_monitor_query_answered st evs s e :
    reach D E V H nbits limit kbits vval st evs -> s <= e -> e < b_version D V st ->
    exists p, query_consistency D E V H st s e = Some (Some p).
  Proof. exact (monitor_query_answered D E V H nbits limit kbits vval e0 kbits_len limit_lt nbits_small st evs s e). Qed.

  Theorem C19_monitor_alerts_iff answer first last :
    monitor D E V H D_eqb answer first last = Alerted <->
    answer = None \/ exists p, answer = Some p /\
      incremental_verify D E V H D_eqb p (s_version D E first) (s_version D E last) (s_hist D E first) (s_hist D E last) = Reject.
  Proof. exact (monitor_alerts_iff D E V H D_eqb answer first last). Qed.

  Hypothesis H_inj : forall a b, H a = H b -> a = b.

  (* (4) alterations are caught whatever the log answers (premise: hash injective on structured inputs) *)
  Theorem C19_auditor_quiet_sound (A : N -> E) answer stored g v :
    auditor D E V H nbits kbits vval D_eqb E_eqb answer stored g = Quiet -> s_hist D E g = root D E V H A v ->
    exists a, answer = QOk D E V a /\ s_event D E g = A (a_actual D E V a) /\ a_actual D E V a <= v.
  Proof. exact (auditor_quiet_sound D E V H nbits kbits vval D_eqb E_eqb D_eqb_eq H_inj A answer stored g v). Qed.

  Theorem C19_monitor_quiet_sound (A B : N -> E) p first last i' j' :
    monitor D E V H D_eqb (Some p) first last = Quiet -> s_version D E first <= s_version D E last ->
    s_hist D E first = root D E V H A i' -> s_hist D E last = root D E V H B j' ->
    forall k, k <= s_version D E first -> A k = B k.
  Proof. exact (monitor_quiet_sound D E V H D_eqb D_eqb_eq H_inj A B p first last i' j'). Qed.
End C19.

Section C19p.
  Variables Sn Sig : Type.
  Variable Sig_eqb : Sig -> Sig -> bool.
  Hypothesis Sig_eqb_eq : forall a b, Sig_eqb a b = true <-> a = b.

  (* (5) publisher, over ANY sequence of delivered batches (every redelivery pattern): no signature is forwarded
         twice, every delivered signature is forwarded, nothing else is, and no empty batch is sent *)
  Theorem C19_publisher_once batches c' outs : pub_run Sn Sig Sig_eqb [] batches = (c', outs) ->
    NoDup (map snd (concat outs)) /\
    (forall g, In g (map snd (concat batches)) <-> In g (map snd (concat outs))) /\
    (forall x, In x (concat outs) -> In x (concat batches)) /\ Forall (fun o => o <> []) outs.
  Proof. exact (publisher_once Sn Sig Sig_eqb Sig_eqb_eq batches c' outs). Qed.

  (* (6) the task manager runs every batch's task in its own goroutine.  With the lock of fix 36f634f around the
         lookup-and-remember loop: for any number of tasks and EVERY schedule of their steps, no signature is forwarded by
         two tasks, nor twice by one.  (Go's sync.Mutex is modelled as: only the owner steps.) *)
  Theorem C19_publisher_once_concurrent batches sched :
    let s := prun Sn Sig Sig_eqb true (pinit Sn Sig batches) sched in
    (forall i, NoDup (map snd (t_out _ _ (p_tasks _ _ s i)))) /\
    (forall i j g, i <> j -> fwd Sn Sig s i g -> fwd Sn Sig s j g -> False).
  Proof. exact (locked_publisher_once Sn Sig Sig_eqb Sig_eqb_eq batches sched). Qed.
End C19p.

(* the pinned code had no lock: two tasks, one shared signed snapshot, four steps - both forward it *)
Example C19_publisher_unlocked_refuted :
  let s := prun N N N.eqb false (pinit N N [[(7, 42)]; [(7, 42)]]) [0; 1; 0; 1]%nat in
  t_out _ _ (p_tasks _ _ s 0%nat) = [(7, 42)] /\ t_out _ _ (p_tasks _ _ s 1%nat) = [(7, 42)].
Proof. exact unlocked_forwards_twice. Qed.

Example C19_premises_hold :
  reach D4 E4 N H4 4 2 kbits4 vid st2 evs2 /\ NoDup (map kbits4 evs2) /\
  snd (pub_run N N N.eqb [] [[(1, 10); (2, 20)]; [(2, 20); (3, 30); (1, 10)]; [(1, 10)]]) = [[(1, 10); (2, 20)]; [(3, 30)]].
Proof.
  split; [exact reach_st2|]. split; [|reflexivity]. repeat constructor; vm_compute; intuition discriminate.
Qed.

Print Assumptions C19_auditor_quiet_on_honest_log.
Print Assumptions C19_auditor_alerts_iff.
Print Assumptions C19_monitor_quiet_on_honest_log.
Print Assumptions C19_monitor_query_answered.
Print Assumptions C19_monitor_alerts_iff.
Print Assumptions C19_auditor_quiet_sound.
Print Assumptions C19_monitor_quiet_sound.
Print Assumptions C19_publisher_once.
Print Assumptions C19_publisher_once_concurrent.
