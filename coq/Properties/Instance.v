(* A small concrete instance (4-bit keys, free term algebra as hash) on which every hypothesis of the
   balloon-level theorems holds; used by the non-vacuity Examples. *)
From QV Require Import Base.Util Base.HashSig Base.TermEq History.HistModel History.HistSpec
  Hyper.HyperModel Hyper.HyperProofs Balloon.Balloon Balloon.BalloonProofs.

Definition E4 := (bool * bool * bool * bool)%type.
Definition kbits4 (e : E4) : key := let '(a, b, c, d) := e in [a; b; c; d].
Definition E4_eqb (x y : E4) : bool := key_eqb (kbits4 x) (kbits4 y).
Definition D4 := term E4 N.
Definition H4 : hin D4 E4 N -> D4 := Hterm.
Definition D4_eqb : D4 -> D4 -> bool := term_eqb E4 N E4_eqb N.eqb.
Definition vid (v : N) : N := v.

Lemma kbits4_len e : length (kbits4 e) = 4%nat.
Proof. destruct e as [[[a b] c] d]. reflexivity. Qed.
Lemma kbits4_inj a b : kbits4 a = kbits4 b -> a = b.
Proof. destruct a as [[[a1 a2] a3] a4], b as [[[b1 b2] b3] b4]. cbn. intros Heq. inversion Heq. reflexivity. Qed.
Lemma E4_eqb_eq a b : E4_eqb a b = true <-> a = b.
Proof. unfold E4_eqb. rewrite key_eqb_eq. split; [apply kbits4_inj|intros ->; reflexivity]. Qed.
Lemma D4_eqb_eq a b : D4_eqb a b = true <-> a = b.
Proof. apply term_eqb_eq; [exact E4_eqb_eq|exact N.eqb_eq]. Qed.
Fixpoint ds_eqb (a b : list D4) : bool :=
  match a, b with
  | [], [] => true
  | x :: a', y :: b' => D4_eqb x y && ds_eqb a' b'
  | _, _ => false
  end.
Lemma ds_eqb_eq a : forall b, ds_eqb a b = true -> a = b.
Proof.
  induction a as [|x a IH]; intros [|y b]; cbn [ds_eqb]; try discriminate; [reflexivity|].
  intros Hb. apply andb_true_iff in Hb. f_equal; [apply D4_eqb_eq|apply IH]; apply Hb.
Qed.
Lemma H4_inj a b : H4 a = H4 b -> a = b.
Proof. apply Hterm_inj. Qed.
Lemma vid_vid v : v < W64 -> vid (vid v) = v.
Proof. reflexivity. Qed.

Definition e4 (n : N) : E4 := (N.testbit n 3, N.testbit n 2, N.testbit n 1, N.testbit n 0).
Definition ds4 := dlist D4 E4 N H4 4.
Definition add4 := add_bulk D4 E4 N H4 4 2 ds4 kbits4 vid.
Definition st0 := init D4 N.

(* two calls: a bulk of three events (two of them sharing three leading bits) and a single add *)
Definition st1 := match add4 st0 [e4 5; e4 4; e4 12] with Some (_, s) => s | None => st0 end.
Definition st2 := match add4 st1 [e4 9] with Some (_, s) => s | None => st1 end.
Definition evs2 : list E4 := [e4 5; e4 4; e4 12; e4 9].

(* a call from a reachable state succeeds ([add_total]), so the state that [st1] and [st2] select is the one it returns *)
Lemma reach_call st evs new : reach D4 E4 N H4 4 2 kbits4 vid st evs ->
  reach D4 E4 N H4 4 2 kbits4 vid (match add4 st new with Some (_, s) => s | None => st end) (evs ++ new).
Proof.
  intros R. destruct (add_total D4 E4 N H4 4 2 kbits4 vid (e4 0) kbits4_len st evs new R) as (sn & s & Ha).
  unfold add4, ds4. rewrite Ha. exact (reach_add _ _ _ _ _ _ _ _ _ _ _ _ _ R Ha).
Qed.

Lemma reach_st2 : reach D4 E4 N H4 4 2 kbits4 vid st2 evs2.
Proof. exact (reach_call _ _ [e4 9] (reach_call _ _ [e4 5; e4 4; e4 12] (reach_init _ _ _ _ _ _ _ _))). Qed.
