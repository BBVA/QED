(* C17, the sender's batchers (server/sender.go, model Sender/Batcher.v): whatever the schedule gives to each batcher, nothing
   is lost or duplicated and every batch holds 1..BatchSize snapshots; every proof goes through the one step [bstep]. *)
From QV Require Import Base.Util Base.Facts Sender.Batcher.
From Coq Require Import Permutation.

Section BatcherProofs.
  Variable S : Type.
  Variable B : nat.
  Hypothesis B_pos : (0 < B)%nat.

  Notation bstep := (bstep S B).
  Notation brun := (brun S B).
  Notation gstep := (gstep S B).
  Notation grun := (grun S B).

  Lemma arrivals_cons e r : arrivals S (e :: r) = arrivals S [e] ++ arrivals S r.
  Proof. exact (flat_map_app _ [e] r). Qed.

  Lemma bstep_conserve buf e buf' out : bstep buf e = (buf', out) ->
    concat out ++ buf' = buf ++ arrivals S [e].
  Proof.
    destruct e as [s|]; cbn.
    - destruct (Nat.eqb (length buf) B); intros Heq; injection Heq as <- <-; cbn; rewrite ?app_nil_r; reflexivity.
    - destruct buf as [|x buf]; intros Heq; injection Heq as <- <-; cbn; rewrite ?app_nil_r; reflexivity.
  Qed.

  Lemma bstep_bound buf e buf' out : (length buf <= B)%nat -> bstep buf e = (buf', out) ->
    (length buf' <= B)%nat /\ Forall (fun b => 1 <= length b <= B)%nat out.
  Proof.
    intros Hb. destruct e as [s|]; cbn.
    - destruct (Nat.eqb_spec (length buf) B) as [He|Hne]; intros Heq; injection Heq as <- <-.
      + split; [cbn; lia|]. constructor; [lia|constructor].
      + split; [rewrite app_length; cbn; lia|constructor].
    - destruct buf as [|x buf]; intros Heq; injection Heq as <- <-.
      + split; [cbn; lia|constructor].
      + split; [cbn; lia|]. constructor; [cbn in *; lia|constructor].
  Qed.

  Theorem brun_conserve evs : forall buf buf' out, brun buf evs = (buf', out) ->
    concat out ++ buf' = buf ++ arrivals S evs.
  Proof.
    induction evs as [|e r IH]; intros buf buf' out; cbn [Batcher.brun].
    - intros Heq. injection Heq as <- <-. cbn. rewrite app_nil_r. reflexivity.
    - destruct (bstep buf e) as [b1 o1] eqn:H1. destruct (brun b1 r) as [b2 o2] eqn:H2.
      intros Heq. injection Heq as <- <-. rewrite concat_app, <- app_assoc, (IH _ _ _ H2), app_assoc, (bstep_conserve _ _ _ _ H1).
      rewrite (arrivals_cons e r), <- app_assoc. reflexivity.
  Qed.

  Theorem brun_bound evs : forall buf buf' out, (length buf <= B)%nat -> brun buf evs = (buf', out) ->
    (length buf' <= B)%nat /\ Forall (fun b => 1 <= length b <= B)%nat out.
  Proof.
    induction evs as [|e r IH]; intros buf buf' out Hb; cbn [Batcher.brun].
    - intros Heq. injection Heq as <- <-. split; [exact Hb|constructor].
    - destruct (bstep buf e) as [b1 o1] eqn:H1. destruct (brun b1 r) as [b2 o2] eqn:H2.
      intros Heq. injection Heq as <- <-. destruct (bstep_bound _ _ _ _ Hb H1) as [Hb1 Ho1].
      destruct (IH _ _ _ Hb1 H2) as [Hb2 Ho2]. split; [exact Hb2|]. apply Forall_app. split; assumption.
  Qed.

  Lemma upd_length {A} (l : list A) : forall i x, length (upd l i x) = length l.
  Proof. induction l as [|h t IH]; intros [|j] x; cbn; auto. Qed.

  Lemma concat_upd_perm (st : list (list S)) : forall i b b', nth_error st i = Some b ->
    Permutation (b' ++ concat st) (b ++ concat (upd st i b')).
  Proof.
    induction st as [|h t IH]; intros [|j] b b' Hn; cbn in Hn; try discriminate.
    - injection Hn as ->. cbn. apply Permutation_app_swap_app.
    - cbn. specialize (IH j b b' Hn).
      eapply Permutation_trans; [apply Permutation_app_swap_app|].
      eapply Permutation_trans; [apply Permutation_app_head; exact IH|]. apply Permutation_app_swap_app.
  Qed.

  Definition ids_ok (n : nat) (sched : list (nat * bev S)) : Prop := Forall (fun ie => (fst ie < n)%nat) sched.
  Definition garrivals (sched : list (nat * bev S)) : list S := arrivals S (map snd sched).

  Lemma gstep_conserve st ie st' out : (fst ie < length st)%nat -> gstep st ie = (st', out) ->
    Permutation (concat out ++ concat st') (concat st ++ arrivals S [snd ie]) /\ length st' = length st.
  Proof.
    clear B_pos. (* lia would carry it into the statement (DESIGN 3.4) *)
    intros Hi. unfold Batcher.gstep. destruct (nth_error st (fst ie)) as [buf|] eqn:Hn.
    - destruct (bstep buf (snd ie)) as [buf' o] eqn:Hs. intros Heq. injection Heq as <- <-.
      split; [|apply upd_length].
      pose proof (bstep_conserve _ _ _ _ Hs) as Hc.
      pose proof (concat_upd_perm st (fst ie) buf buf' Hn) as Hp.
      (* buf ++ concat o ++ concat (upd ..) ~ concat o ++ buf' ++ concat st = buf ++ arr ++ concat st *)
      apply Permutation_app_inv_l with (l := buf).
      eapply Permutation_trans; [apply Permutation_app_swap_app|].
      eapply Permutation_trans; [apply Permutation_app_head, Permutation_sym; exact Hp|].
      rewrite app_assoc, Hc, <- app_assoc. apply Permutation_app_head, Permutation_app_comm.
    - apply nth_error_None in Hn. lia.
  Qed.

  (* C17 conservation: published + still held = held at the start + arrived, whatever the interleaving *)
  Theorem grun_conserve sched : forall st st' out, ids_ok (length st) sched -> grun st sched = (st', out) ->
    Permutation (concat out ++ concat st') (concat st ++ garrivals sched) /\ length st' = length st.
  Proof using B_pos. (* B_pos: a premise of the statement that no step needs; conservation holds for any B (DESIGN 3.4) *)
    induction sched as [|x r IH]; intros st st' out Hids; cbn [Batcher.grun].
    - intros Heq. injection Heq as <- <-. cbn. rewrite app_nil_r. split; reflexivity.
    - destruct (gstep st x) as [s1 o1] eqn:H1. destruct (grun s1 r) as [s2 o2] eqn:H2.
      intros Heq. injection Heq as <- <-. inversion Hids as [|? ? Hx Hr]; subst.
      destruct (gstep_conserve _ _ _ _ Hx H1) as [Hp1 Hl1]. rewrite <- Hl1 in Hr.
      destruct (IH _ _ _ Hr H2) as [Hp2 Hl2]. split; [|congruence].
      rewrite concat_app, <- app_assoc, Hp2, app_assoc, Hp1.
      unfold garrivals. cbn [map]. rewrite (arrivals_cons (snd x) (map snd r)), <- app_assoc. reflexivity.
  Qed.

  Definition bufs_ok (st : list (list S)) : Prop := Forall (fun b => length b <= B)%nat st.

  Lemma upd_Forall {A} (P : A -> Prop) (l : list A) : forall i x, Forall P l -> P x -> Forall P (upd l i x).
  Proof.
    induction l as [|h t IH]; intros [|j] x Hl Hx; cbn; auto; inversion Hl; subst; constructor; auto.
  Qed.

  Lemma gstep_bound st ie st' out : bufs_ok st -> gstep st ie = (st', out) ->
    bufs_ok st' /\ Forall (fun b => 1 <= length b <= B)%nat out.
  Proof.
    intros Hb. unfold Batcher.gstep. destruct (nth_error st (fst ie)) as [buf|] eqn:Hn.
    - destruct (bstep buf (snd ie)) as [buf' o] eqn:Hs. intros [= <- <-].
      destruct (bstep_bound _ _ _ _ (proj1 (Forall_forall _ _) Hb _ (nth_error_In _ _ Hn)) Hs) as [Hb' Ho].
      split; [apply upd_Forall; assumption|exact Ho].
    - intros [= <- <-]. split; [exact Hb|constructor].
  Qed.

  (* C17: every published batch holds between 1 and BatchSize snapshots *)
  Theorem grun_bound sched : forall st st' out, bufs_ok st -> grun st sched = (st', out) ->
    bufs_ok st' /\ Forall (fun b => 1 <= length b <= B)%nat out.
  Proof.
    induction sched as [|x r IH]; intros st st' out Hb; cbn [Batcher.grun].
    - intros Heq. injection Heq as <- <-. split; [exact Hb|constructor].
    - destruct (gstep st x) as [s1 o1] eqn:H1. destruct (grun s1 r) as [s2 o2] eqn:H2.
      intros Heq. injection Heq as <- <-. destruct (gstep_bound _ _ _ _ Hb H1) as [Hb1 Ho1].
      destruct (IH _ _ _ Hb1 H2) as [Hb2 Ho2]. split; [exact Hb2|]. apply Forall_app. split; assumption.
  Qed.

  (* the timers: once every batcher has seen a tick after the last arrival, nothing is left inside the sender *)
  Definition all_tick (n : nat) : list (nat * bev S) := map (fun i => (i, Tick S)) (seq 0 n).

  Lemma upd_app {A} (l1 : list A) b l2 x : upd (l1 ++ b :: l2) (length l1) x = l1 ++ x :: l2.
  Proof. induction l1 as [|h l1 IH]; cbn [app length upd]; [reflexivity|]. rewrite IH. reflexivity. Qed.

  Lemma gstep_tick pre b post : fst (gstep (pre ++ b :: post) (length pre, Tick S)) = pre ++ [] :: post.
  Proof.
    clear B_pos.
    unfold Batcher.gstep. cbn [fst snd]. rewrite nth_error_app2, Nat.sub_diag by lia. cbn [nth_error].
    destruct b; cbn [Batcher.bstep fst]; apply upd_app.
  Qed.

  Lemma grun_fst_cons st x r : fst (grun st (x :: r)) = fst (grun (fst (gstep st x)) r).
  Proof. cbn [Batcher.grun]. destruct (gstep st x) as [s1 o1]. cbn [fst]. destruct (grun s1 r). reflexivity. Qed.

  (* the batchers before position [length pre] have had their tick, those of [post] get theirs *)
  Lemma grun_all_tick_gen (post : list (list S)) : forall (pre : list (list S)),
    Forall (fun b => b = []) pre ->
    Forall (fun b => b = []) (fst (grun (pre ++ post) (map (fun i => (i, Tick S)) (seq (length pre) (length post))))).
  Proof.
    induction post as [|b post IH]; intros pre Hpre; [cbn; rewrite app_nil_r; exact Hpre|].
    cbn [length seq map]. rewrite grun_fst_cons, gstep_tick.
    rewrite (app_snoc pre [] post), <- (last_length pre []).
    apply IH, Forall_app. split; [exact Hpre|repeat constructor].
  Qed.

  Theorem grun_all_tick st : Forall (fun b => b = []) (fst (grun st (all_tick (length st)))).
  Proof. exact (grun_all_tick_gen st [] (Forall_nil _)). Qed.

  Lemma grun_app a : forall b st, grun st (a ++ b) =
    let '(s1, o1) := grun st a in let '(s2, o2) := grun s1 b in (s2, o1 ++ o2).
  Proof.
    induction a as [|x a IH]; intros b st; cbn [app Batcher.grun].
    - destruct (grun st b); reflexivity.
    - destruct (gstep st x) as [s1 o1]. rewrite IH. destruct (grun s1 a) as [s2 o2]. destruct (grun s2 b) as [s3 o3].
      rewrite app_assoc. reflexivity.
  Qed.

  Lemma all_tick_ids n : ids_ok n (all_tick n).
  Proof. clear B_pos. apply Forall_map, Forall_forall. intros i Hi. apply in_seq in Hi. cbn. lia. Qed.

  Lemma all_tick_arrivals n : garrivals (all_tick n) = [].
  Proof.
    unfold garrivals, all_tick, arrivals. rewrite map_map, flat_map_concat_map, map_map.
    apply concat_nil_Forall, Forall_map, Forall_forall. intros i _. reflexivity.
  Qed.

  (* C17 exactly once: from empty batchers, for distinct snapshots, after the final ticks every snapshot that arrived
     is in exactly one published batch *)
  Theorem sender_exactly_once n sched st' out :
    ids_ok n sched -> NoDup (garrivals sched) ->
    grun (repeat [] n) (sched ++ all_tick n) = (st', out) ->
    Permutation (concat out) (garrivals sched) /\ NoDup (concat out) /\
    Forall (fun b => 1 <= length b <= B)%nat out.
  Proof.
    intros Hids Hnd Hrun. rewrite grun_app in Hrun.
    destruct (grun (repeat [] n) sched) as [s1 o1] eqn:H1. destruct (grun s1 (all_tick n)) as [s2 o2] eqn:H2.
    injection Hrun as <- <-. rewrite <- (repeat_length ([] : list S) n) in Hids at 1. (* grun_conserve wants ids_ok (length st) *)
    destruct (grun_conserve sched _ _ _ Hids H1) as [Hp1 Hl1]. rewrite repeat_length in Hl1.
    pose proof (all_tick_ids n) as Hids2. rewrite <- Hl1 in Hids2 at 1.
    destruct (grun_conserve _ _ _ _ Hids2 H2) as [Hp2 _].
    pose proof (grun_all_tick s1) as He. rewrite Hl1, H2 in He. apply concat_nil_Forall in He. cbn [fst] in He.
    rewrite He, all_tick_arrivals, !app_nil_r in Hp2.
    rewrite (proj2 (concat_nil_Forall _) (Forall_repeat _ _ n eq_refl)) in Hp1. cbn [app] in Hp1.
    assert (Hperm : Permutation (concat (o1 ++ o2)) (garrivals sched)) by (rewrite concat_app, Hp2; exact Hp1).
    split; [exact Hperm|]. split; [exact (Permutation_NoDup (Permutation_sym Hperm) Hnd)|].
    destruct (grun_bound sched _ _ _ (Forall_repeat (fun b => length b <= B)%nat [] n (Nat.le_0_l B)) H1) as [Hb1 Ho1].
    destruct (grun_bound _ _ _ _ Hb1 H2) as [_ Ho2]. apply Forall_app. split; assumption.
  Qed.
End BatcherProofs.

(* without the premise 0 < BatchSize the size claim is false: with BatchSize 0 only an empty buffer counts as full, so
   after the first arrival nothing is flushed on arrival and the buffer grows past any size *)
Example batch_size_zero_refuted : exists evs buf out,
  brun N 0 [] evs = (buf, out) /\ exists b, In b (out ++ [buf]) /\ (length b > 1)%nat.
Proof. exists [Arrive N 1; Arrive N 2; Arrive N 3]. eexists. eexists. split; [reflexivity|]. exists [1; 2; 3]. split; [right; left; reflexivity|cbn; lia]. Qed.
