(* The proposing side of C17 (consensus/fsm.go RaftNode.AddBulk): after raft has applied its entry, every proposer pushes
   the snapshots it was given, in order, onto the one channel the sender's batchers read.  Several proposers run at the
   same time and resume in ANY order; the channel sees an arbitrary interleaving of their sequences, which carries every
   snapshot exactly once - unless a "published" high-water mark stands in front of the channel (seeded change C17-10). *)
From QV Require Import Base.Util.
From Coq Require Import Permutation.

Section Interleave.
  Variable A : Type.

  (* ps: what each proposer still has to push; l: what the channel receives from now on.  A push takes the head of a
     proposer's list: that each proposer's snapshots go out in their own order is built in here, not stated as a theorem *)
  Inductive interleave : list (list A) -> list A -> Prop :=
  | il_done ps : Forall (fun p => p = []) ps -> interleave ps []
  | il_push ps1 x p ps2 l : interleave (ps1 ++ p :: ps2) l -> interleave (ps1 ++ (x :: p) :: ps2) (x :: l).

  Theorem interleave_perm ps l : interleave ps l -> Permutation l (concat ps).
  Proof.
    induction 1 as [ps Hnil|ps1 x p ps2 l _ IH].
    - rewrite (proj2 (concat_nil_Forall ps) Hnil). constructor.
    - rewrite concat_app in *. apply Permutation_cons_app. exact IH.
  Qed.

  Corollary interleave_each_once ps l : interleave ps l -> NoDup (concat ps) ->
    NoDup l /\ forall x, In x l <-> In x (concat ps).
  Proof.
    intros Hi Hnd. pose proof (interleave_perm ps l Hi) as Hp. split.
    - apply (Permutation_NoDup (Permutation_sym Hp) Hnd).
    - intros x. rewrite Hp. reflexivity.
  Qed.

  Corollary interleave_length ps l : interleave ps l -> length l = length (concat ps).
  Proof. intros Hi. apply Permutation_length. apply interleave_perm. exact Hi. Qed.
End Interleave.

(* the high-water mark of seeded change C17-10 as a filter on the versions the channel carries: a version below the mark
   is dropped, one that passes moves the mark to v + 1 *)
Fixpoint hwm_filter (mark : N) (l : list N) : list N :=
  match l with
  | [] => []
  | v :: r => if N.leb mark v then v :: hwm_filter (v + 1) r else hwm_filter mark r
  end.

(* two proposers: the first was given versions 0 and 1, the second version 2; the second resumes first *)
Example hwm_loses_a_snapshot :
  interleave N [[0; 1]; [2]]%N [2; 0; 1]%N /\ hwm_filter 0 [2; 0; 1]%N = [2]%N.
Proof.
  split; [|reflexivity].
  apply (il_push N [[0; 1]%N] 2%N [] [] [0; 1]%N).
  apply (il_push N [] 0%N [1%N] [[]] [1%N]).
  apply (il_push N [] 1%N [] [[]] []).
  apply il_done. repeat constructor.
Qed.
