(* server/sender.go doSign + crypto/sign: the signed message is fmt.Sprintf("%v", snapshot) for a
   *protocol.Snapshot{EventDigest, HistoryDigest, HyperDigest []byte; Version uint64}, i.e.
       &{[e0 e1 ...] [h0 h1 ...] [y0 y1 ...] version}
   with every byte and the version in decimal.  The message determines the snapshot (parse_snapshot is a left
   inverse of print_snapshot), so a signature scheme in which a signature verifies for one message only binds
   every field. *)
From Coq Require Import String Ascii DecimalString DecimalN Decimal.
From QV Require Import Base.Util.
Open Scope string_scope.

Record snap := { sn_event : list N; sn_history : list N; sn_hyper : list N; sn_version : N }.

Definition print_dec (n : N) : string := NilEmpty.string_of_uint (N.to_uint n).
Definition parse_dec (s : string) : N :=
  match NilEmpty.uint_of_string s with Some d => N.of_uint d | None => 0 end.

Fixpoint join_sp (l : list string) : string :=
  match l with
  | [] => ""
  | [x] => x
  | x :: r => x ++ " " ++ join_sp r
  end.
Definition print_bytes (l : list N) : string := "[" ++ join_sp (map print_dec l) ++ "]".
Definition print_snapshot (s : snap) : string :=
  "&{" ++ print_bytes (sn_event s) ++ " " ++ print_bytes (sn_history s) ++ " " ++ print_bytes (sn_hyper s) ++ " "
       ++ print_dec (sn_version s) ++ "}".

Fixpoint has (c : ascii) (s : string) : bool :=
  match s with EmptyString => false | String x r => Ascii.eqb x c || has c r end.
Fixpoint split_at (c : ascii) (s : string) (acc : string) : option (string * string) :=
  match s with
  | EmptyString => None
  | String x r => if Ascii.eqb x c then Some (acc, r) else split_at c r (acc ++ String x EmptyString)
  end.
Fixpoint split_all (c : ascii) (s : string) (cur : string) : list string :=
  match s with
  | EmptyString => [cur]
  | String x r => if Ascii.eqb x c then cur :: split_all c r "" else split_all c r (cur ++ String x EmptyString)
  end.
Definition parse_inner (s : string) : list N :=
  match s with EmptyString => [] | _ => map parse_dec (split_all " " s "") end.
Definition expect (p : string) (s : string) : option string :=
  if prefix p s then Some (substring (String.length p) (String.length s - String.length p) s) else None.

Definition parse_bytes (s : string) : option (list N * string) :=
  match expect "[" s with
  | Some r => match split_at "]" r "" with Some (inner, rest) => Some (parse_inner inner, rest) | None => None end
  | None => None
  end.

Definition parse_snapshot (s : string) : option snap :=
  match expect "&{" s with None => None | Some r0 =>
  match parse_bytes r0 with None => None | Some (e, r1) =>
  match expect " " r1 with None => None | Some r2 =>
  match parse_bytes r2 with None => None | Some (h, r3) =>
  match expect " " r3 with None => None | Some r4 =>
  match parse_bytes r4 with None => None | Some (y, r5) =>
  match expect " " r5 with None => None | Some r6 =>
  match split_at "}" r6 "" with
  | Some (v, EmptyString) => Some {| sn_event := e; sn_history := h; sn_hyper := y; sn_version := parse_dec v |}
  | _ => None
  end end end end end end end end.

Definition is_digit (c : ascii) : bool :=
  match c with
  | "0" | "1" | "2" | "3" | "4" | "5" | "6" | "7" | "8" | "9" => true
  | _ => false
  end%char.

Lemma parse_print_dec n : parse_dec (print_dec n) = n.
Proof. unfold parse_dec, print_dec. rewrite NilEmpty.usu. apply DecimalN.Unsigned.of_to. Qed.

Lemma print_dec_nonempty n : print_dec n <> "".
Proof.
  unfold print_dec. destruct n as [|p]; [cbn; discriminate|].
  cbn [N.to_uint]. pose proof (DecimalPos.Unsigned.to_uint_nonnil p) as Hn.
  destruct (Pos.to_uint p); cbn; try discriminate. contradiction.
Qed.

Lemma has_app c a b : has c (a ++ b) = has c a || has c b.
Proof. induction a as [|x a IH]; cbn; [reflexivity|]. rewrite IH, orb_assoc. reflexivity. Qed.

Lemma print_dec_has c n : is_digit c = false -> has c (print_dec n) = false.
Proof.
  (* every constructor of a decimal numeral prints one digit character, and c is not one *)
  intros Hc. unfold print_dec. induction (N.to_uint n) as [|d IH|d IH|d IH|d IH|d IH|d IH|d IH|d IH|d IH|d IH];
    cbn [NilEmpty.string_of_uint has]; [reflexivity|..]; rewrite IH, orb_false_r;
    apply Ascii.eqb_neq; intros <-; discriminate Hc.
Qed.

Lemma print_decs_has c (l : list N) : is_digit c = false -> Forall (fun x => has c x = false) (map print_dec l).
Proof. intros Hc. apply Forall_map, Forall_forall. intros n _. exact (print_dec_has c n Hc). Qed.

Lemma append_assoc (a b c : string) : (a ++ b) ++ c = a ++ (b ++ c).
Proof. induction a as [|x a IH]; cbn; [reflexivity|]. rewrite IH. reflexivity. Qed.

Lemma append_nil_r (a : string) : a ++ "" = a.
Proof. induction a as [|x a IH]; cbn; [reflexivity|]. rewrite IH. reflexivity. Qed.

Lemma split_at_skip c a b : forall acc, has c a = false -> split_at c (a ++ b) acc = split_at c b (acc ++ a).
Proof.
  induction a as [|x a IH]; intros acc Hn; cbn [append]; [rewrite append_nil_r; reflexivity|].
  apply orb_false_iff in Hn. destruct Hn as [Hx Ha]. cbn [split_at]. rewrite Hx, (IH _ Ha), append_assoc. reflexivity.
Qed.

Lemma split_all_skip c a b : forall cur, has c a = false -> split_all c (a ++ b) cur = split_all c b (cur ++ a).
Proof.
  induction a as [|x a IH]; intros cur Hn; cbn [append]; [rewrite append_nil_r; reflexivity|].
  apply orb_false_iff in Hn. destruct Hn as [Hx Ha]. cbn [split_all]. rewrite Hx, (IH _ Ha), append_assoc. reflexivity.
Qed.

Lemma split_at_app c a b acc : has c a = false -> split_at c (a ++ String c b) acc = Some (acc ++ a, b).
Proof. intros Hn. rewrite (split_at_skip _ _ _ _ Hn). cbn [split_at]. rewrite Ascii.eqb_refl. reflexivity. Qed.

Lemma join_sp_cons x y l : join_sp (x :: y :: l) = x ++ String " " (join_sp (y :: l)).
Proof. reflexivity. Qed.

Lemma split_join (l : list string) : l <> [] -> Forall (fun x => has " " x = false) l ->
  split_all " " (join_sp l) "" = l.
Proof.
  induction l as [|x l IH]; intros Hne Hall; [contradiction|]. inversion Hall as [|? ? Hx Hl]; subst.
  destruct l as [|y l].
  - cbn [join_sp]. rewrite <- (append_nil_r x) at 1. rewrite (split_all_skip _ _ _ _ Hx). reflexivity.
  - rewrite join_sp_cons, (split_all_skip _ _ _ _ Hx). cbn [split_all append]. rewrite Ascii.eqb_refl.
    f_equal. apply IH; [discriminate|exact Hl].
Qed.

Lemma has_join c (l : list string) : Ascii.eqb " " c = false -> Forall (fun x => has c x = false) l -> has c (join_sp l) = false.
Proof.
  intros Hc. induction l as [|x l IH]; intros Hall; [reflexivity|]. inversion Hall as [|? ? Hx Hl]; subst.
  destruct l as [|y l]; [exact Hx|]. rewrite join_sp_cons, has_app. cbn [has]. rewrite Hx, Hc, (IH Hl). reflexivity.
Qed.

Lemma parse_inner_join (l : list N) : parse_inner (join_sp (map print_dec l)) = l.
Proof.
  destruct l as [|n l]; [reflexivity|]. unfold parse_inner.
  (* parse_inner treats the empty string apart ([] prints as the empty string): a non-empty list must not print so *)
  assert (Hne : join_sp (map print_dec (n :: l)) <> "").
  { cbn [map join_sp]. destruct (map print_dec l); [apply print_dec_nonempty|].
    pose proof (print_dec_nonempty n). destruct (print_dec n); [contradiction|discriminate]. }
  destruct (join_sp (map print_dec (n :: l))) eqn:Hj; [contradiction|]. rewrite <- Hj.
  rewrite split_join, map_map; [|discriminate|apply print_decs_has; reflexivity].
  rewrite <- (map_id (n :: l)) at 2. apply map_ext, parse_print_dec.
Qed.

Lemma prefix_app p s : prefix p (p ++ s) = true.
Proof. induction p as [|x p IH]; cbn; [destruct s; reflexivity|]. destruct (ascii_dec x x); [exact IH|contradiction]. Qed.

Lemma substring_all s : substring 0 (String.length s) s = s.
Proof. induction s as [|y s IH]; cbn; [reflexivity|]. rewrite IH. reflexivity. Qed.

Lemma substring_app p s : substring (String.length p) (String.length (p ++ s) - String.length p) (p ++ s) = s.
Proof.
  induction p as [|x p IH]; cbn.
  - rewrite Nat.sub_0_r. apply substring_all.
  - exact IH.
Qed.

Lemma expect_app p s : expect p (p ++ s) = Some s.
Proof. unfold expect. rewrite prefix_app, substring_app. reflexivity. Qed.

Lemma parse_print_bytes l rest : parse_bytes (print_bytes l ++ rest) = Some (l, rest).
Proof.
  unfold parse_bytes, print_bytes. rewrite !append_assoc, expect_app.
  change ("]" ++ rest) with (String "]" rest). rewrite split_at_app by (apply has_join; [reflexivity|apply print_decs_has; reflexivity]).
  cbn [append]. rewrite parse_inner_join. reflexivity.
Qed.

Theorem parse_print_snapshot s : parse_snapshot (print_snapshot s) = Some s.
Proof.
  unfold parse_snapshot, print_snapshot. rewrite expect_app.
  rewrite parse_print_bytes, expect_app, parse_print_bytes, expect_app, parse_print_bytes, expect_app.
  rewrite split_at_app by (apply print_dec_has; reflexivity).
  cbn [append]. rewrite parse_print_dec. destruct s; reflexivity.
Qed.

Theorem print_snapshot_inj a b : print_snapshot a = print_snapshot b -> a = b.
Proof. intros Heq. pose proof (parse_print_snapshot a) as Ha. rewrite Heq, parse_print_snapshot in Ha. congruence. Qed.

(* Binding, for any signature scheme in which a signature verifies for one message only and a message has
   one signature (the idealisation of ed25519 as implemented by golang.org/x/crypto/ed25519: deterministic
   signing, strict verification) *)
Section Binding.
  Variable Sig : Type.
  Variable sign : string -> Sig.
  Variable verify : string -> Sig -> bool.
  Hypothesis verify_sign : forall m, verify m (sign m) = true.
  Hypothesis verify_unique : forall m sg, verify m sg = true -> sg = sign m.
  Hypothesis sign_binds : forall m m', sign m = sign m' -> m = m'.

  Definition do_sign (s : snap) : snap * Sig := (s, sign (print_snapshot s)).
  Definition check (ss : snap * Sig) : bool := verify (print_snapshot (fst ss)) (snd ss).

  Theorem signed_verifies s : check (do_sign s) = true.
  Proof. apply verify_sign. Qed.

  (* any pair (snapshot', signature') that verifies and shares the snapshot or the signature with a signed
     snapshot IS that signed snapshot: changing any field, or any part of the signature, stops it verifying *)
  Theorem signature_binds s s' sg' : check (s', sg') = true -> (s' = s \/ sg' = snd (do_sign s)) ->
    (s', sg') = do_sign s.
  Proof.
    unfold check, do_sign. cbn [fst snd]. intros Hv [Hs | Hs]; subst.
    - rewrite (verify_unique _ _ Hv). reflexivity.
    - pose proof (verify_unique _ _ Hv) as Hs. apply sign_binds, print_snapshot_inj in Hs. subst. reflexivity.
  Qed.
End Binding.

(* the model of the printed form for the correspondence run *)
Definition run_print_cases (cs : list (snap * string)) : list N :=
  map fst (filter (fun kc => negb (String.eqb (print_snapshot (fst (snd kc))) (snd (snd kc))))
                  (combine (map N.of_nat (seq 0 (length cs))) cs)).
