(* C14: the bplus store refines the per-table sorted map.  The trees reachable by mutations are sorted.
   Of the four hypotheses on kleb, outside the section [get_refines] takes none, [get_range_refines] and
   [get_last_refines] transitivity alone, [mutate_sorted] and [mutate_refines] all four (through [tinsert_sorted]);
   [sorted_app], [pleb_spec] and [tinsert_table] take none. *)
From QV Require Import Base.Util Base.Facts Store.Bplus.

Section BplusProofs.
  Variable K : Type.
  Variable Val : Type.
  Variable kleb : K -> K -> bool.
  Variable kmin : K.
  Hypothesis kleb_refl : forall a, kleb a a = true.
  Hypothesis kleb_trans : forall a b c, kleb a b = true -> kleb b c = true -> kleb a c = true.
  Hypothesis kleb_total : forall a b, kleb a b = true \/ kleb b a = true.
  Hypothesis kleb_antisym : forall a b, kleb a b = true -> kleb b a = true -> a = b.

  Notation pkey := (pkey K).
  Notation pleb := (pleb K kleb).
  Notation peqb := (peqb K kleb).
  Notation keqb := (keqb K kleb).
  Notation tree := (tree K Val).
  Notation tinsert := (tinsert K Val kleb).
  Notation tget := (tget K Val kleb).
  Notation table := (table K Val).

  Lemma keqb_eq a b : keqb a b = true <-> a = b.
  Proof.
    unfold Bplus.keqb. rewrite andb_true_iff. split; [intros [H1 H2]; apply kleb_antisym; assumption|].
    intros ->. split; apply kleb_refl.
  Qed.

  Lemma peqb_eq a b : peqb a b = true <-> a = b.
  Proof.
    destruct a as [p k], b as [q j]. unfold Bplus.peqb. cbn [fst snd]. rewrite andb_true_iff, N.eqb_eq, keqb_eq.
    split; [intros [-> ->]; reflexivity|intros [= -> ->]; auto].
  Qed.

  Lemma pleb_refl a : pleb a a = true.
  Proof. unfold Bplus.pleb. rewrite N.eqb_refl, kleb_refl. apply orb_true_r. Qed.

  Lemma pleb_spec a b : pleb a b = true <-> (fst a < fst b \/ (fst a = fst b /\ kleb (snd a) (snd b) = true)).
  Proof. unfold Bplus.pleb. rewrite orb_true_iff, andb_true_iff, N.ltb_lt, N.eqb_eq. reflexivity. Qed.

  Lemma pleb_trans a b c : pleb a b = true -> pleb b c = true -> pleb a c = true.
  Proof.
    rewrite !pleb_spec. intros [H1|[H1 H1']] [H2|[H2 H2']]; try (left; lia).
    right. split; [lia|]. exact (kleb_trans _ _ _ H1' H2').
  Qed.

  Lemma pleb_total a b : pleb a b = true \/ pleb b a = true.
  Proof.
    rewrite !pleb_spec. destruct (N.lt_trichotomy (fst a) (fst b)) as [H|[H|H]]; [left; left; exact H| |right; left; exact H].
    destruct (kleb_total (snd a) (snd b)); [left|right]; right; split; auto.
  Qed.

  Lemma pleb_antisym a b : pleb a b = true -> pleb b a = true -> a = b.
  Proof.
    rewrite !pleb_spec. destruct a as [p k], b as [q j]. cbn [fst snd].
    intros [H1|[H1 H1']] [H2|[H2 H2']]; try lia. subst q. f_equal. apply kleb_antisym; assumption.
  Qed.

  (* strictly sorted trees: what google/btree maintains *)
  Fixpoint sorted (t : tree) : Prop :=
    match t with
    | [] => True
    | (k, _) :: r => (forall kv, In kv r -> pleb k (fst kv) = true /\ k <> fst kv) /\ sorted r
    end.

  Lemma sorted_app a b : sorted (a ++ b) ->
    sorted a /\ sorted b /\ forall x y, In x a -> In y b -> pleb (fst x) (fst y) = true /\ fst x <> fst y.
  Proof.
    induction a as [|[k v] a IH]; cbn [app sorted].
    - intros H. split; [exact I|]. split; [exact H|]. intros x y [].
    - intros [Hlb Hs]. destruct (IH Hs) as (Sa & Sb & Hab). split.
      + split; [|exact Sa]. intros kv Hin. apply Hlb, in_or_app. left. exact Hin.
      + split; [exact Sb|]. intros x y [<-|Hx] Hy; [apply Hlb, in_or_app; right; exact Hy|exact (Hab x y Hx Hy)].
  Qed.

  Lemma tinsert_in t k v kv : In kv (tinsert t k v) -> In kv ((k, v) :: t).
  Proof.
    induction t as [|[k' v'] r IH]; cbn [Bplus.tinsert]; [exact (fun H => H)|].
    destruct (peqb k k'); [intros [<-|Hin]; [left; reflexivity|right; right; exact Hin]|].
    destruct (pleb k k'); [exact (fun H => H)|].
    intros [<-|Hin]; [right; left; reflexivity|]. destruct (IH Hin) as [<-|Hi]; [left; reflexivity|right; right; exact Hi].
  Qed.

  Lemma tinsert_sorted t k v : sorted t -> sorted (tinsert t k v).
  Proof.
    induction t as [|[k' v'] r IH]; cbn [Bplus.tinsert sorted]; [intros _; split; [intros ? []|exact I]|].
    intros [Hlb Hs]. destruct (peqb k k') eqn:He.
    - (* replace *) apply peqb_eq in He. subst k'. cbn [sorted]. split; assumption.
    - destruct (pleb k k') eqn:Hle.
      + (* before the head *) cbn [sorted]. split; [|split; assumption].
        intros kv [<-|Hin]; cbn [fst].
        * split; [exact Hle|]. intros ->. rewrite (proj2 (peqb_eq k' k') eq_refl) in He. discriminate.
        * destruct (Hlb kv Hin) as [H1 H2]. split; [exact (pleb_trans _ _ _ Hle H1)|].
          intros ->. apply H2. apply pleb_antisym; assumption.
      + (* deeper: k' bounds (k, v) by totality *) cbn [sorted]. split; [|exact (IH Hs)].
        intros kv Hin. destruct (tinsert_in _ _ _ _ Hin) as [<-|Hi]; [|exact (Hlb kv Hi)].
        cbn [fst]. destruct (pleb_total k k') as [Hc|Hc]; [congruence|]. split; [exact Hc|].
        intros ->. rewrite pleb_refl in Hle. discriminate.
  Qed.

  Lemma mutate_cons t q k v r : mutate K Val kleb t ((q, k, v) :: r) = mutate K Val kleb (tinsert t (q, k) v) r.
  Proof. reflexivity. Qed.

  Lemma mutate_sorted muts : forall t, sorted t -> sorted (mutate K Val kleb t muts).
  Proof.
    induction muts as [|[[q k] v] r IH]; intros t Hs; [exact Hs|]. rewrite mutate_cons. apply IH. apply tinsert_sorted. exact Hs.
  Qed.

  Lemma table_cons q' j v r q : table ((q', j, v) :: r) q = if q' =? q then (j, v) :: table r q else table r q.
  Proof. unfold Bplus.table. cbn [filter fst snd]. destruct (q' =? q); reflexivity. Qed.

  Theorem get_refines t p k : get K Val kleb t p k = spec_get K Val kleb (table t p) k.
  Proof.
    unfold Bplus.get. induction t as [|[[q j] v] r IH]; [reflexivity|].
    rewrite table_cons. cbn [Bplus.tget]. unfold Bplus.peqb at 1. cbn [fst snd]. rewrite (N.eqb_sym p q).
    destruct (q =? p); cbn [andb Bplus.spec_get]; [destruct (keqb k j); [reflexivity|exact IH]|exact IH].
  Qed.

  Lemma table_nil t p : (forall kv, In kv t -> fst (fst kv) <> p) -> table t p = [].
  Proof.
    intros H. unfold Bplus.table. rewrite filter_none; [reflexivity|]. intros kv Hin. apply N.eqb_neq. exact (H kv Hin).
  Qed.

  Lemma table_nil_above t p x :
    (forall kv, In kv t -> pleb x (fst kv) = true) -> p < fst x -> table t p = [].
  Proof.
    intros Hlb Hpq. apply table_nil. intros kv Hin. pose proof (Hlb kv Hin) as H. apply pleb_spec in H.
    (* lia must see fst at type N * K -> N *)
    unfold Bplus.pkey in *. lia.
  Qed.

  (* sortedness matters in one case only: a key put before the first item of a later table starts its own table *)
  Lemma tinsert_table t p k v q : sorted t ->
    table (tinsert t (p, k) v) q = if p =? q then spec_put K Val kleb (table t q) k v else table t q.
  Proof.
    induction t as [|[[p' k'] v'] r IH]; intros Hs; [cbn [Bplus.tinsert]; rewrite table_cons; reflexivity|].
    destruct Hs as [Hlb Hs]. specialize (IH Hs). cbn [Bplus.tinsert]. unfold Bplus.peqb at 1, Bplus.pleb at 1. cbn [fst snd].
    rewrite (table_cons p' k' v' r). destruct (p =? p') eqn:Hpp.
    - (* the head is of table p: on that table spec_put makes the same key test, another table gets nothing *)
      apply N.eqb_eq in Hpp. subst p'. rewrite N.ltb_irrefl. cbn [andb orb].
      destruct (keqb k k') eqn:Hk; [|destruct (kleb k k') eqn:Hle].
      + (* replace *) rewrite table_cons. destruct (p =? q); [|reflexivity]. cbn [Bplus.spec_put]. rewrite Hk. reflexivity.
      + (* before the head *) rewrite !table_cons. destruct (p =? q); [|reflexivity]. cbn [Bplus.spec_put]. rewrite Hk, Hle. reflexivity.
      + (* deeper *) rewrite table_cons, IH. destruct (p =? q); [|reflexivity]. cbn [Bplus.spec_put]. rewrite Hk, Hle. reflexivity.
    - (* the head is of another table *)
      cbn [andb]. rewrite orb_false_r. destruct (p <? p') eqn:Hlt.
      + (* before a later table's head: the case needing sortedness, r holds nothing of p *)
        rewrite !table_cons. destruct (N.eqb_spec p q) as [Hpq|_]; [subst q|reflexivity]. rewrite N.eqb_sym, Hpp.
        apply N.ltb_lt in Hlt. rewrite (table_nil_above r p (p', k')); [reflexivity| |exact Hlt].
        intros kv Hin. exact (proj1 (Hlb kv Hin)).
      + (* deeper *) rewrite table_cons, IH. destruct (N.eqb_spec p q) as [Hpq|_]; [subst q|reflexivity]. rewrite N.eqb_sym, Hpp. reflexivity.
  Qed.

  (* every table receives exactly its own writes, in order; atomicity is by construction: the tree after Mutate is a
     function of the tree before and the batch *)
  Fixpoint puts_of (muts : list (N * K * Val)) (p : N) (m : list (K * Val)) : list (K * Val) :=
    match muts with
    | [] => m
    | (q, k, v) :: r => puts_of r p (if q =? p then spec_put K Val kleb m k v else m)
    end.

  Theorem mutate_refines muts : forall t p, sorted t ->
    table (mutate K Val kleb t muts) p = puts_of muts p (table t p).
  Proof.
    induction muts as [|[[q k] v] r IH]; intros t p Hs; [reflexivity|]. rewrite mutate_cons. cbn [puts_of].
    rewrite IH by (apply tinsert_sorted; exact Hs). rewrite tinsert_table by exact Hs. reflexivity.
  Qed.

  Lemma sorted_filter (f : pkey * Val -> bool) t : sorted t -> sorted (filter f t).
  Proof.
    induction t as [|[k v] r IH]; [intros _; exact I|]. intros [Hlb Hs]. cbn [filter].
    destruct (f (k, v)); [|exact (IH Hs)]. cbn [sorted]. split; [|exact (IH Hs)].
    intros kv Hin. apply filter_In in Hin. exact (Hlb kv (proj1 Hin)).
  Qed.

  Lemma ascend_ge_filter t x : sorted t ->
    ascend_ge K Val kleb t x = filter (fun kv => pleb x (fst kv)) t.
  Proof.
    induction t as [|[k v] r IH]; [reflexivity|]. intros [Hlb Hs]. cbn [Bplus.ascend_ge filter fst].
    destruct (pleb x k) eqn:Hx; [|exact (IH Hs)].
    f_equal. symmetry. apply filter_all. intros kv Hin. exact (pleb_trans _ _ _ Hx (proj1 (Hlb kv Hin))).
  Qed.

  Lemma take_le_filter t hi : sorted t ->
    take_le K Val kleb t hi = filter (fun kv => pleb (fst kv) hi) t.
  Proof.
    induction t as [|[k v] r IH]; [reflexivity|]. intros [Hlb Hs]. cbn [Bplus.take_le filter fst].
    destruct (pleb k hi) eqn:Hk; [f_equal; exact (IH Hs)|].
    symmetry. apply filter_none. intros kv Hin. destruct (pleb (fst kv) hi) eqn:Hc; [|reflexivity].
    rewrite (pleb_trans _ _ _ (proj1 (Hlb kv Hin)) Hc) in Hk. discriminate.
  Qed.

  Theorem get_range_refines t p a b : sorted t ->
    get_range K Val kleb t p a b = spec_range K Val kleb (table t p) a b.
  Proof.
    intros Hs. unfold Bplus.get_range, Bplus.spec_range, Bplus.table.
    rewrite ascend_ge_filter by exact Hs. rewrite take_le_filter by (apply sorted_filter; exact Hs).
    rewrite filter_filter, filter_of_map, filter_filter. apply f_equal. apply filter_ext. intros [[q k] v]. cbn [fst snd].
    (* between two keys of table p lie keys of table p only *)
    unfold Bplus.pleb. cbn [fst snd].
    destruct (N.eqb_spec q p) as [->|Hne]; [rewrite N.ltb_irrefl, N.eqb_refl; reflexivity|].
    rewrite (proj2 (N.eqb_neq p q)) by congruence.
    destruct (N.ltb_spec p q), (N.ltb_spec q p); [lia|reflexivity|reflexivity|lia].
  Qed.

  Lemma spec_last_app (m : list (K * Val)) x : spec_last K Val (m ++ [x]) = Some x.
  Proof. unfold Bplus.spec_last. rewrite rev_app_distr. reflexivity. Qed.

  Lemma table_app t1 t2 p : table (t1 ++ t2) p = table t1 p ++ table t2 p.
  Proof. unfold Bplus.table. rewrite filter_app, map_app. reflexivity. Qed.

  (* a descending scan meets the last item first: it skips the later tables; the first other item is p's last, or p is empty *)
  Lemma last_scan_refines t p : sorted t ->
    last_scan K Val (rev t) p = spec_last K Val (table t p).
  Proof.
    induction t as [|x t IH] using rev_ind; [reflexivity|]. intros Hs.
    rewrite rev_app_distr. cbn [rev app Bplus.last_scan]. destruct x as [[q k] v]. cbn [fst snd].
    destruct (sorted_app _ _ Hs) as (Hst & _ & Hcut).
    rewrite table_app, table_cons. change (table [] p) with (@nil (K * Val)).
    destruct (N.ltb_spec p q) as [Hpq|Hpq].
    - rewrite (proj2 (N.eqb_neq q p)) by lia. rewrite app_nil_r. exact (IH Hst).
    - destruct (N.eqb_spec q p) as [_|Hqp].
      + rewrite spec_last_app. reflexivity.
      + rewrite app_nil_r.
        (* everything in t has a prefix <= q < p *)
        rewrite table_nil; [reflexivity|]. intros kv Hin.
        pose proof (proj1 (Hcut kv (q, k, v) Hin (or_introl eq_refl))) as H. apply pleb_spec in H. cbn [fst] in H. unfold Bplus.pkey in *. lia.
  Qed.

  Theorem get_last_refines t p : sorted t ->
    get_last K Val kleb kmin t p = spec_last K Val (table t p).
  Proof.
    intros Hs. unfold Bplus.get_last, Bplus.descend_le. rewrite take_le_filter by exact Hs.
    rewrite last_scan_refines by (apply sorted_filter; exact Hs).
    apply f_equal. unfold Bplus.table. rewrite filter_filter. apply f_equal. apply filter_ext. intros [[q k] v]. cbn [fst snd].
    destruct (N.eqb_spec q p) as [->|_]; [|apply andb_false_r].
    rewrite andb_true_r. apply pleb_spec. left. cbn. lia.
  Qed.
End BplusProofs.
