(* C14, the GetAll reader (storage/bplus: KVPairReader over AscendGreaterOrEqual): a reader is a position in its table, what
   lies after it is pending, and Read(n) moves the position by n. *)
From QV Require Import Base.Util Base.Facts Store.Bplus Store.BplusProofs.

Section Reader.
  Variable K : Type.
  Variable Val : Type.
  Variable kleb : K -> K -> bool.
  Variable kmin : K.
  Hypothesis kleb_refl : forall a, kleb a a = true.
  Hypothesis kleb_trans : forall a b c, kleb a b = true -> kleb b c = true -> kleb a c = true.
  Hypothesis kleb_antisym : forall a b, kleb a b = true -> kleb b a = true -> a = b.
  Hypothesis kmin_le : forall a, kleb kmin a = true.

  Notation pkey := (pkey K).
  Notation pleb := (pleb K kleb).
  Notation peqb := (peqb K kleb).
  Notation tree := (tree K Val).
  Notation sorted := (sorted K Val kleb).
  Notation reader := (reader K).
  Notation read_scan := (read_scan K Val kleb).
  Notation proj := (fun kv : pkey * Val => (snd (fst kv), snd kv)).
  Notation peqb_eq := (BplusProofs.peqb_eq K kleb kleb_refl kleb_antisym).
  Notation pleb_refl := (BplusProofs.pleb_refl K kleb kleb_refl).
  Notation pleb_spec := (BplusProofs.pleb_spec K kleb).
  Notation pleb_antisym := (BplusProofs.pleb_antisym K kleb kleb_antisym).
  Notation sorted_app := (BplusProofs.sorted_app K Val kleb).
  Notation table_nil_above := (BplusProofs.table_nil_above K Val kleb).
  Notation ascend_ge_filter := (BplusProofs.ascend_ge_filter K Val kleb kleb_trans).

  (* the entries of the reader's table that it has not returned yet *)
  Definition pending (t : tree) (r : reader) : list (K * Val) :=
    map proj (filter (fun kv => (fst (fst kv) =? r_prefix K r) &&
                                (negb (r_started K r) || (pleb (r_last K r) (fst kv) && negb (peqb (fst kv) (r_last K r))))) t).

  Definition adv (r : reader) (k : pkey) : reader := {| r_prefix := r_prefix K r; r_last := k; r_started := true |}.
  (* the one item the scan passes over without returning it: the key it returned last *)
  Definition unread (r : reader) (kv : pkey * Val) : bool := negb (r_started K r && peqb (fst kv) (r_last K r)).

  (* a reader that has not started stands at the table's least possible key *)
  Definition reader_ok (r : reader) : Prop :=
    fst (r_last K r) = r_prefix K r /\ (r_started K r = false -> snd (r_last K r) = kmin).

  Lemma unread_all r L : (forall kv, In kv L -> fst kv <> r_last K r) -> filter (unread r) L = L.
  Proof.
    intros H. apply filter_all. intros kv Hin. unfold unread. destruct (peqb (fst kv) (r_last K r)) eqn:He; [|rewrite andb_false_r; reflexivity].
    apply peqb_eq in He. destruct (H kv Hin He).
  Qed.

  Lemma filter_gt_cut pre k v rest : sorted (pre ++ (k, v) :: rest) ->
    filter (fun kv => pleb k (fst kv) && negb (peqb (fst kv) k)) (pre ++ (k, v) :: rest) = rest.
  Proof.
    intros Hs. apply sorted_app in Hs. destruct Hs as (_ & [Hlb _] & Hcut). rewrite filter_app. cbn [filter fst].
    rewrite (proj2 (peqb_eq k k) eq_refl), andb_false_r, filter_none, filter_all; [reflexivity| |].
    - intros kv Hin. destruct (Hlb kv Hin) as [A B]. rewrite A. destruct (peqb (fst kv) k) eqn:He; [|reflexivity].
      apply peqb_eq in He. congruence.
    - intros kv Hin. destruct (Hcut kv (k, v) Hin (or_introl eq_refl)) as [A B]. cbn [fst] in A, B.
      destruct (pleb k (fst kv)) eqn:Hc; [|reflexivity]. destruct (B (pleb_antisym _ _ A Hc)).
  Qed.

  Lemma pending_adv pre k v rest r : sorted (pre ++ (k, v) :: rest) ->
    pending (pre ++ (k, v) :: rest) (adv r k) = table K Val rest (r_prefix K r).
  Proof.
    intros Hs. rewrite <- (filter_gt_cut pre k v rest Hs) at 2. unfold pending, Bplus.table. rewrite filter_filter.
    apply f_equal. apply filter_ext. intros kv. cbn [adv r_prefix r_started r_last negb orb]. apply andb_comm.
  Qed.

  (* pending, read off where Read starts its scan *)
  Lemma pending_ascend t r : sorted t -> reader_ok r ->
    pending t r = table K Val (filter (unread r) (ascend_ge K Val kleb t (r_last K r))) (r_prefix K r).
  Proof.
    intros Hs [Hp Hm]. rewrite (ascend_ge_filter t _ Hs). unfold pending, Bplus.table, unread.
    rewrite !filter_filter. apply f_equal. apply filter_ext. intros kv.
    (* both sides: the prefix test, last < key if started; the right also: last <= key *)
    destruct (N.eqb_spec (fst (fst kv)) (r_prefix K r)) as [Hq|_]; [|rewrite !andb_false_r; reflexivity]. rewrite andb_true_r.
    destruct (r_started K r); cbn [negb orb andb]; [reflexivity|]. rewrite andb_true_r. symmetry.
    (* not started: last = (prefix, kmin), below the whole table *)
    apply pleb_spec. right. split; [rewrite Hp; symmetry; exact Hq|]. rewrite (Hm eq_refl). apply kmin_le.
  Qed.

  Lemma read_scan_spec t : sorted t -> forall items pre r n acc,
    (* where the scan stands in the tree: pre is behind it, items ahead *)
    t = pre ++ items ->
    reader_ok r ->
    (* nothing ahead is before the last key, so an item of another table is of a later one *)
    (forall kv, In kv items -> pleb (r_last K r) (fst kv) = true) ->
    (* what is pending lies ahead, the key to pass over excepted *)
    pending t r = table K Val (filter (unread r) items) (r_prefix K r) ->
    fst (read_scan items r n acc) = rev acc ++ firstn n (pending t r) /\
    pending t (snd (read_scan items r n acc)) = skipn n (pending t r) /\
    reader_ok (snd (read_scan items r n acc)).
  Proof.
    intros Hs. induction items as [|[k v] rest IH]; intros pre r n acc Ht Hok Hge Hpend.
    { cbn [Bplus.read_scan fst snd]. rewrite Hpend. cbn. rewrite firstn_nil, skipn_nil, app_nil_r. auto. }
    destruct n as [|n']; [cbn; rewrite app_nil_r; auto|].
    assert (Ht' : t = (pre ++ [(k, v)]) ++ rest) by (rewrite <- app_snoc; exact Ht).
    rewrite Ht in Hs. pose proof (pending_adv pre k v rest r Hs) as Hadv.
    apply sorted_app in Hs. destruct Hs as (_ & [Hlb _] & _). rewrite <- Ht in Hadv.
    cbn [Bplus.read_scan fst]. destruct (fst k =? r_prefix K r) eqn:Hp; cbn [negb].
    - (* an item of the reader's table *)
      cbn [filter] in Hpend. unfold unread at 1 in Hpend. cbn [fst] in Hpend.
      (* Hpend branches on read_scan's own test: one destruct decides both *)
      destruct (r_started K r && peqb k (r_last K r)).
      + (* the key returned last: passed over *)
        apply (IH (pre ++ [(k, v)])); [exact Ht'|exact Hok|intros kv Hin; apply Hge; right; exact Hin|exact Hpend].
      + (* returned; the reader advances to k *)
        fold (adv r k).
        assert (Hnow : pending t r = (snd k, v) :: pending t (adv r k)).
        { rewrite Hpend, Hadv. cbn [negb]. unfold Bplus.table at 1. cbn [filter fst]. rewrite Hp, unread_all; [reflexivity|].
          (* the rest lies beyond k, which is not before the last key *)
          intros kv Hin He. destruct (Hlb kv Hin) as [A B]. apply B.
          apply (pleb_antisym _ _ A). rewrite He. exact (Hge (k, v) (or_introl eq_refl)). }
        destruct (IH (pre ++ [(k, v)]) (adv r k) n' ((snd k, v) :: acc) Ht') as (E1 & E2 & E3).
        * split; [apply N.eqb_eq; exact Hp|discriminate].
        * intros kv Hin. exact (proj1 (Hlb kv Hin)).
        * rewrite Hadv, unread_all; [reflexivity|]. intros kv Hin He. exact (proj2 (Hlb kv Hin) (eq_sym He)).
        * rewrite E1, E2, Hnow. cbn [rev firstn skipn]. rewrite <- app_assoc. auto.
    - (* an item of a later table: nothing of the reader's table is ahead *)
      cbn [fst snd]. rewrite Hpend, (table_nil_above (filter (unread r) _) _ k).
      + cbn. rewrite app_nil_r. auto.
      + intros kv Hin. apply filter_In, proj1 in Hin. destruct Hin as [<-|Hin]; [apply pleb_refl|exact (proj1 (Hlb kv Hin))].
      + pose proof (Hge (k, v) (or_introl eq_refl)) as A. apply pleb_spec in A. cbn [fst] in A.
        apply N.eqb_neq in Hp. destruct Hok as [Hok _]. lia.
  Qed.

  Lemma ascend_ge_suffix t x : exists pre, t = pre ++ ascend_ge K Val kleb t x.
  Proof.
    induction t as [|[k v] t [pre IH]]; [exists []; reflexivity|]. cbn [Bplus.ascend_ge].
    destruct (pleb x k); [exists []; reflexivity|]. exists ((k, v) :: pre). cbn [app]. f_equal. exact IH.
  Qed.

  (* one Read(n) on an unchanged tree: the next n entries of the table, each exactly once, in key order, and the
     reader moves past them *)
  Theorem read_refines t r n : sorted t -> reader_ok r ->
    fst (read K Val kleb t r n) = firstn n (pending t r) /\
    pending t (snd (read K Val kleb t r n)) = skipn n (pending t r) /\
    reader_ok (snd (read K Val kleb t r n)).
  Proof.
    intros Hs Hok. unfold Bplus.read. destruct (ascend_ge_suffix t (r_last K r)) as [pre Ht].
    apply (read_scan_spec t Hs _ pre r n [] Ht Hok).
    - rewrite (ascend_ge_filter t _ Hs). intros kv Hin. apply filter_In in Hin. exact (proj2 Hin).
    - exact (pending_ascend t r Hs Hok).
  Qed.

  (* the way every caller uses the reader: Read(n) until it returns nothing *)
  Fixpoint drain (t : tree) (r : reader) (n fuel : nat) : list (K * Val) :=
    match fuel with
    | O => []
    | S f => match fst (read K Val kleb t r n) with
             | [] => []
             | out => out ++ drain t (snd (read K Val kleb t r n)) n f
             end
    end.

  Lemma pending_new t p : pending t (new_reader K kmin p) = table K Val t p.
  Proof.
    unfold pending, Bplus.table, new_reader. cbn [r_prefix r_started negb orb]. apply f_equal. apply filter_ext. intros kv. apply andb_true_r.
  Qed.

  Lemma drain_pending t n : sorted t -> (0 < n)%nat -> forall fuel r, reader_ok r -> (length (pending t r) < fuel)%nat ->
    drain t r n fuel = pending t r.
  Proof.
    intros Hs Hn. induction fuel as [|f IH]; intros r Hok Hlen; [lia|].
    destruct (read_refines t r n Hs Hok) as (E1 & E2 & E3). cbn [drain]. rewrite E1.
    destruct (pending t r) as [|x P] eqn:HP.
    - destruct n; reflexivity.
    - destruct n as [|n']; [lia|]. cbn [firstn]. rewrite (IH _ E3).
      + rewrite E2. exact (firstn_skipn (S n') (x :: P)).
      + rewrite E2. cbn [skipn length] in *. pose proof (skipn_length n' P). lia.
  Qed.

  (* GetAll + Read until exhausted = the table, every entry exactly once, in key order, for any chunk size *)
  Theorem get_all_refines t p n fuel : sorted t -> (0 < n)%nat -> (length (table K Val t p) < fuel)%nat ->
    drain t (new_reader K kmin p) n fuel = table K Val t p.
  Proof.
    intros Hs Hn Hf. rewrite <- pending_new. apply drain_pending; [exact Hs|exact Hn| |rewrite pending_new; exact Hf].
    split; [reflexivity|intros _; reflexivity].
  Qed.
End Reader.
