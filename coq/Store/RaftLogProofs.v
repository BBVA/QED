From QV Require Import Base.Util Base.Facts Store.RaftLog.

Theorem get_store m i e j : rl_get (rl_store m i e) j = if j =? i then Some e else rl_get m j.
Proof. reflexivity. Qed.

(* C15.  consensus/raft_log.go deletes the engine's half-open [min, max) and then max itself, so that max+1 (0 for the greatest
   index) is never computed; rl_delete_range takes the inclusive range in one filter. *)
Theorem get_delete_range m lo hi j :
  rl_get (rl_delete_range m lo hi) j = if (lo <=? j) && (j <=? hi) then None else rl_get m j.
Proof.
  unfold rl_delete_range, rl_get. destruct (N.ltb_spec hi lo) as [Hlt|_].
  - (* hi < lo: nothing is deleted, and no j lies in the range *)
    destruct (N.leb_spec lo j), (N.leb_spec j hi); try reflexivity. lia.
  - rewrite (assoc_filter_key N.eqb N.eqb_eq (fun k => negb ((lo <=? k) && (k <=? hi)))). destruct ((lo <=? j) && (j <=? hi)); reflexivity.
Qed.

Lemma fold_min_spec l : forall a, In (fold_left N.min l a) (a :: l) /\ forall x, In x (a :: l) -> fold_left N.min l a <= x.
Proof.
  induction l as [|y l IH]; intros a; cbn [fold_left].
  - split; [left; reflexivity|]. intros x [<-|[]]. lia.
  - destruct (IH (N.min a y)) as [H1 H2].
    (* the fold is at or below its seed min a y, which settles x = a and x = y below *)
    pose proof (H2 _ (or_introl eq_refl)) as H0. split.
    + destruct H1 as [H1|H1]; [|right; right; exact H1]. destruct (N.min_dec a y) as [Hm|Hm]; [left|right; left]; congruence.
    + intros x [<-|[<-|Hx]]; [lia|lia|exact (H2 x (or_intror Hx))].
Qed.

Lemma fold_max_spec l : forall a, In (fold_left N.max l a) (a :: l) /\ forall x, In x (a :: l) -> x <= fold_left N.max l a.
Proof.
  induction l as [|y l IH]; intros a; cbn [fold_left].
  - split; [left; reflexivity|]. intros x [<-|[]]. lia.
  - destruct (IH (N.max a y)) as [H1 H2].
    (* the fold is at or above its seed max a y, which settles x = a and x = y below *)
    pose proof (H2 _ (or_introl eq_refl)) as H0. split.
    + destruct H1 as [H1|H1]; [|right; right; exact H1]. destruct (N.max_dec a y) as [Hm|Hm]; [left|right; left]; congruence.
    + intros x [<-|[<-|Hx]]; [lia|lia|exact (H2 x (or_intror Hx))].
Qed.

Lemma rl_get_in (m : rlog) j : rl_get m j <> None <-> In j (map fst m).
Proof.
  unfold rl_get. rewrite (assoc_dom N.eqb N.eqb_eq). destruct (assoc N.eqb j m) as [e|].
  - split; [eauto|discriminate].
  - split; [contradiction|intros [e He]; discriminate He].
Qed.

(* C15: raft's FirstIndex / LastIndex *)
Theorem rl_first_spec m :
  (m = [] -> rl_first m = 0) /\
  (m <> [] -> rl_get m (rl_first m) <> None /\ forall j, rl_get m j <> None -> rl_first m <= j).
Proof.
  split; [intros ->; reflexivity|]. destruct m as [|[i e] r]; [contradiction|]. intros _. cbn [rl_first].
  destruct (fold_min_spec (map fst r) i) as [H1 H2]. split; [apply rl_get_in; exact H1|].
  intros j Hj. apply rl_get_in in Hj. exact (H2 j Hj).
Qed.

Theorem rl_last_spec m :
  (m = [] -> rl_last m = 0) /\
  (m <> [] -> rl_get m (rl_last m) <> None /\ forall j, rl_get m j <> None -> j <= rl_last m).
Proof.
  split; [intros ->; reflexivity|]. destruct m as [|[i e] r]; [contradiction|]. intros _. cbn [rl_last].
  destruct (fold_max_spec (map fst r) i) as [H1 H2]. split; [apply rl_get_in; exact H1|].
  intros j Hj. apply rl_get_in in Hj. exact (H2 j Hj).
Qed.
