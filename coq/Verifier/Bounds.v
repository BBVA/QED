(* C12: the client verifier does a bounded amount of work whatever the answer contains: the recomputation
   it performs is determined by the claimed versions (history) and the key length (hyper), not by the size of
   the audit paths; and it always returns a verdict. *)
From QV Require Import Base.Util Base.Facts Base.HashSig History.HistModel Hyper.HyperModel Balloon.Balloon.
Close Scope N_scope.
Open Scope nat_scope.

Section Bounds.
  Variable E : Type.

  Fixpoint op_size (o : op E) : nat :=
    match o with
    | OLeaf _ _ | OGet _ _ => 1
    | OInner _ _ l r => S (op_size l + op_size r)
    | OPartial _ _ l => S (op_size l)
    | OPut o | OMutate o | OCollect o => op_size o
    end.

  Lemma verify_go_size idx v (e : E) h : forall i, op_size (verify_go idx v e i h) <= 2 * h + 1.
  Proof.
    induction h as [|h IH]; intros i; cbn [verify_go op_size]; [lia|].
    pose proof (IH i) as H1. pose proof (IH (i + pow2 h)%N) as H2.
    destruct (idx <? _)%N; destruct (v <? _)%N; cbn [op_size]; lia.
  Qed.

  Lemma vstart_go_size v h : forall i, op_size (@vstart_go E v i h) <= 2 * h + 1.
  Proof.
    induction h as [|h IH]; intros i; cbn [vstart_go op_size]; [lia|].
    destruct (v <? _)%N; cbn [op_size]; [specialize (IH i)|specialize (IH (i + pow2 h)%N)]; lia.
  Qed.

  Lemma inr_split x i h : Nat.b2n (inr x i (S h)) = Nat.b2n (inr x i h) + Nat.b2n (inr x (i + pow2 h) h).
  Proof.
    unfold inr. rewrite pow2_S, (N.leb_antisym x (i + pow2 h)).
    replace (i + 2 * pow2 h)%N with (i + pow2 h + pow2 h)%N by lia.
    destruct (x <? i + pow2 h)%N eqn:Hb.
    - apply N.ltb_lt in Hb. rewrite (proj2 (N.ltb_lt x (i + pow2 h + pow2 h)) (N.lt_lt_add_r _ _ _ Hb)).
      destruct (i <=? x)%N; reflexivity.
    - apply N.ltb_ge in Hb. rewrite (proj2 (N.leb_le i x) (N.le_trans _ _ _ (N.le_add_r i (pow2 h)) Hb)).
      reflexivity.
  Qed.

  (* the end recomputation follows at most the paths to its two targets *)
  Lemma vend_go_size s e h : forall i,
    op_size (@vend_go E s e i h) <= 2 * (Nat.b2n (inr s i h) + Nat.b2n (inr e i h)) * h + 1.
  Proof.
    induction h as [|h IH]; intros i; cbn [vend_go].
    - destruct (negb _); cbn [op_size]; lia.
    - destruct (inr s i (S h) || inr e i (S h)) eqn:Hany; cbn [negb op_size]; [|lia].
      assert (Hpos : 1 <= Nat.b2n (inr s i (S h)) + Nat.b2n (inr e i (S h))).
      { destruct (inr s i (S h)); [apply le_n_S, Nat.le_0_l|]. cbn [orb] in Hany. rewrite Hany. apply le_n. }
      pose proof (inr_split s i h) as Hs. pose proof (inr_split e i h) as He.
      pose proof (IH i) as Hl. pose proof (IH (i + pow2 h)%N) as Hr.
      destruct (e <? _)%N; cbn [op_size]; lia.
  Qed.

  (* A version below 2^64 has a tree of height bitlen v <= 64 (bitlen_le_iff).  129 = 2 * 64 + 1: one path, with a
     sibling at each level (verify_go_size, vstart_go_size).  257 = 2 * 2 * 64 + 1: the end recomputation follows two
     paths (vend_go_size). *)
  Theorem membership_work_bounded idx v (e : E) :
    (v < 18446744073709551616)%N -> op_size (pruneToVerify idx v e) <= 129.
  Proof.
    intros Hv. unfold pruneToVerify. pose proof (verify_go_size idx v e (bitlen v) 0%N).
    pose proof (proj2 (bitlen_le_iff v 64) Hv). lia.
  Qed.

  Theorem incremental_work_bounded s e :
    (s < 18446744073709551616)%N -> (e < 18446744073709551616)%N ->
    op_size (@pruneToVerifyIncrementalStart E s) + op_size (@pruneToVerifyIncrementalEnd E s e) <= 129 + 257.
  Proof.
    intros Hs He. unfold pruneToVerifyIncrementalStart, pruneToVerifyIncrementalEnd.
    pose proof (vstart_go_size s (bitlen s) 0%N). pose proof (vend_go_size s e (bitlen e) 0%N) as Hv.
    pose proof (proj2 (bitlen_le_iff s 64) Hs) as H0. pose proof (proj2 (bitlen_le_iff e 64) He) as H1.
    assert (Hn : Nat.b2n (inr s 0 (bitlen e)) + Nat.b2n (inr e 0 (bitlen e)) <= 2)
      by (destruct (inr s 0 _), (inr e 0 _); repeat constructor).
    pose proof (Nat.mul_le_mono _ _ _ _ Hn H1). lia.
  Qed.
End Bounds.

(* hyper verifier: number of hash evaluations, counted by an instrumented twin of yverify.  Trusted: the twin is
   compared with HyperModel.yverify by eye; no lemma ties the two. *)
Section HyperCost.
  Variable D : Type.

  Fixpoint yverify_cost (path : hpos -> option D) (lh : N) (h : nat) (pre : list bool) (kb : key) : nat :=
    if (N.of_nat h <=? lh)%N then 1 else
    match h, kb with
    | S h', b :: kb' =>
        if b then match path (pre ++ [false], h') with None => 0 | Some _ => S (yverify_cost path lh h' (pre ++ [true]) kb') end
        else S (yverify_cost path lh h' (pre ++ [false]) kb')
    | _, _ => 0
    end.

  Lemma yverify_cost_bound path lh h : forall pre kb, yverify_cost path lh h pre kb <= h + 1.
  Proof.
    induction h as [|h IH]; intros pre kb; cbn [yverify_cost]; destruct (_ <=? lh)%N; try lia.
    destruct kb as [|b kb]; [lia|]. destruct b; [destruct (path _)|]; try lia.
    - specialize (IH (pre ++ [true]) kb). lia.
    - specialize (IH (pre ++ [false]) kb). lia.
  Qed.
End HyperCost.

(* the verifier always returns a verdict (by construction: the functions are total and a missing entry is a
   rejection); stated for completeness *)
Section Total.
  Variables D E V : Type.
  Variable H : hin D E V -> D.
  Variable nbits : nat.
  Variable kbits : E -> key.
  Variable vval : N -> V.
  Variable D_eqb : D -> D -> bool.
  Variable E_eqb : E -> E -> bool.

  Theorem digest_verify_total a d h y :
    digest_verify D E V H nbits kbits vval D_eqb E_eqb a d h y = Accept \/
    digest_verify D E V H nbits kbits vval D_eqb E_eqb a d h y = Reject.
  Proof. destruct (digest_verify D E V H nbits kbits vval D_eqb E_eqb a d h y); auto. Qed.

  Theorem incremental_verify_total p s e ds de :
    incremental_verify D E V H D_eqb p s e ds de = Accept \/ incremental_verify D E V H D_eqb p s e ds de = Reject.
  Proof. destruct (incremental_verify D E V H D_eqb p s e ds de); auto. Qed.
End Total.
