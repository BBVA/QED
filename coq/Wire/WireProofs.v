(* C13: an audit path parsed back from its wire form is the path, for indices up to MaxInt64 and heights below 2^16. *)
From Coq Require Import String Ascii DecimalString DecimalN Decimal.
From QV Require Import Base.Util History.HistModel Wire.Wire.

(* 9223372036854775807 = 2^63 - 1 = MaxInt64, where strconv.Atoi clamps *)
Lemma atoi_print n : n <= 9223372036854775807 -> atoi (print_dec n) = n.
Proof.
  intros Hn. unfold atoi, print_dec. rewrite NilEmpty.usu.
  pose proof (DecimalN.Unsigned.of_to n) as Hot.
  destruct (N.to_uint n); rewrite <- Hot.
  1: reflexivity. (* Nil: never the digits of a number, and 0 on both sides all the same *)
  all: apply N.min_l; rewrite Hot; exact Hn.
Qed.

Lemma string_of_uint_no_bar d : has_bar (NilEmpty.string_of_uint d) = false.
Proof. induction d; cbn; try reflexivity; exact IHd. Qed.

Lemma append_nil_r s : (s ++ "")%string = s.
Proof. induction s as [|c s IH]; cbn; [reflexivity|rewrite IH; reflexivity]. Qed.

Lemma append_assoc s t u : ((s ++ t) ++ u)%string = (s ++ (t ++ u))%string.
Proof. induction s as [|c s IH]; cbn; [reflexivity|rewrite IH; reflexivity]. Qed.

Lemma split_bar_app a b acc : has_bar a = false ->
  split_bar (a ++ "|" ++ b) acc = Some ((acc ++ a)%string, b).
Proof.
  revert acc. induction a as [|c a IH]; intros acc Hnb; cbn.
  - rewrite append_nil_r. reflexivity.
  - apply Bool.orb_false_iff in Hnb. destruct Hnb as [Hc Ha]. rewrite Hc, IH, append_assoc by exact Ha. reflexivity.
Qed.

(* C13: every position the history tree can produce for a log shorter than 2^63 survives the wire *)
Theorem parse_key_string i h :
  i <= 9223372036854775807 -> (N.of_nat h < 2^16) -> parse_key (key_string (i, h)) = Some (i, h).
Proof.
  intros Hi Hh. unfold parse_key, key_string. cbn [fst snd].
  assert (Him : i mod 2^64 = i) by (apply N.mod_small; lia).
  assert (Hhm : N.of_nat h mod 2^16 = N.of_nat h) by (apply N.mod_small; exact Hh).
  rewrite Him, Hhm.
  rewrite split_bar_app by apply string_of_uint_no_bar. cbn [append].
  assert (Hnb : has_bar (print_dec (N.of_nat h)) = false) by apply string_of_uint_no_bar. rewrite Hnb.
  rewrite !atoi_print by lia.
  (* parse_key reduces what atoi returns mod 2^64 and mod 2^16 once more *)
  rewrite Him, Hhm, Nat2N.id. reflexivity.
Qed.

Theorem parse_serialize_path {D} (p : list (pos * D)) :
  (forall kv, In kv p -> fst (fst kv) <= 9223372036854775807 /\ N.of_nat (snd (fst kv)) < 2^16) ->
  parse_path (serialize_path p) = p.
Proof.
  induction p as [|[[i h] d] p IH]; intros Hall; [reflexivity|].
  cbn [serialize_path map parse_path flat_map fst snd].
  destruct (Hall _ (or_introl eq_refl)) as [Hi Hh].
  rewrite parse_key_string by assumption. cbn [app]. apply f_equal.
  apply IH. intros kv Hin. apply Hall. right. exact Hin.
Qed.
